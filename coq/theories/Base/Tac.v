(** What every proof file starts from: the libraries, [lia] taught booleans and [nat]
    (ZifyBool, ZifyNat: it then reads [<=?], [<?], [=?], [&&], [||], [negb] arithmetically), and [inv]. *)
From Coq Require Export List ZArith Bool Lia Arith.
From Coq Require Import ZifyBool ZifyNat.
Export ListNotations.

(** ZifyBool also hooks into [lia] a case split on every boolean term it does not interpret, with a rewrite through
    the whole context for each: two goals per such term.  The contexts here hold many ([wf_b g tab rank = true],
    [local_ok e = true], ...) and the arithmetic needs none of them split, so the hook is switched off; a proof
    that wants an unknown boolean split destructs it, or switches the hook on for its file as Proofs/SetProofs.v
    does.  The second line switches off the pass of ZifyNat that turns [/] and [mod] into equations before every
    call; no proof here needs it.  Both settings reach every file that imports this one. *)
Ltac Zify.zify_post_hook ::= idtac.
Ltac Zify.zify_convert_to_euclidean_division_equations_flag ::= constr:(false).

Ltac inv H := inversion H; subst; clear H.
