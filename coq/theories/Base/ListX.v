(** General facts about lists, shared by the proof files. *)
From PegV Require Import Base.Tac.

Lemma firstn_app_le {A} (l1 l2 : list A) n : n <= length l1 -> firstn n (l1 ++ l2) = firstn n l1.
Proof. intros H. rewrite firstn_app. replace (n - length l1) with 0 by lia. apply app_nil_r. Qed.

Lemma firstn_app_exact {A} (l1 l2 : list A) : firstn (length l1) (l1 ++ l2) = l1.
Proof. rewrite firstn_app_le by lia. apply firstn_all. Qed.

Lemma firstn_firstn_le {A} (l : list A) n m : n <= m -> firstn n (firstn m l) = firstn n l.
Proof. intros. rewrite firstn_firstn. f_equal. lia. Qed.

Lemma firstn_length_le' {A} (l : list A) n : n <= length l -> length (firstn n l) = n.
Proof. apply firstn_length_le. Qed.

Lemma skipn_app_exact {A} (l1 l2 : list A) : skipn (length l1) (l1 ++ l2) = l2.
Proof. induction l1; cbn; auto. Qed.

Lemma firstn_plus_app {A} (l : list A) n k :
  firstn (n + k) l = firstn n l ++ firstn k (skipn n l).
Proof.
  revert l; induction n as [|n IH]; intros l; cbn; [reflexivity|].
  destruct l; cbn; [rewrite firstn_nil; reflexivity|]. f_equal. apply IH.
Qed.

Lemma rev_snoc {A} (l : list A) x : rev (l ++ [x]) = x :: rev l.
Proof. rewrite rev_app_distr. reflexivity. Qed.

Lemma fold_left_app' {A B} (f : A -> B -> A) l1 l2 a : fold_left f (l1 ++ l2) a = fold_left f l2 (fold_left f l1 a).
Proof. apply fold_left_app. Qed.

Lemma app_inj_len {A} (l1 : list A) : forall l1' l2 l2', l1 ++ l2 = l1' ++ l2' -> length l1 = length l1' -> l1 = l1' /\ l2 = l2'.
Proof.
  induction l1 as [|a l1 IH]; intros [|b l1'] l2 l2' H L; cbn in *; try discriminate; auto.
  inv H. destruct (IH l1' l2 l2' H2) as [-> ->]; auto.
Qed.

Lemma firstn_snoc {A} (d : A) : forall (l : list A) k, k < length l -> firstn (S k) l = firstn k l ++ [nth k l d].
Proof.
  induction l as [|x l IH]; intros k Hk; [cbn in Hk; lia|]. destruct k; [reflexivity|].
  cbn [firstn nth app]. rewrite <- IH by (cbn in Hk; lia). reflexivity.
Qed.

Lemma sum_snoc {A} (f : A -> nat) : forall (l : list A) w, fold_right (fun x a => f x + a) 0 (l ++ [w]) = fold_right (fun x a => f x + a) 0 l + f w.
Proof. induction l as [|y l IH]; intros w; cbn [app fold_right]; [lia|]. rewrite IH. lia. Qed.

Lemma nth_map_const {A B} (b : B) (l : list A) : forall r, nth r (map (fun _ => b) l) b = b.
Proof. induction l as [|a l IH]; intros [|r]; cbn; auto. Qed.

(** a walk that carries the index of the entry it is at and changes the entry at index r: the shape of [setb] and
    [bump] in Model/Analyses.v *)
Section UpdAt.
Context {A : Type} (f : A -> A) (r : nat).

Fixpoint upd_at (l : list A) (i : nat) : list A :=
  match l with [] => [] | c :: l' => (if i =? r then f c else c) :: upd_at l' (S i) end.

Lemma upd_at_length : forall l i, length (upd_at l i) = length l.
Proof. induction l as [|c l IH]; intros i; cbn; [reflexivity|]. rewrite IH. reflexivity. Qed.

Lemma upd_at_nth : forall l i j d,
  nth j (upd_at l i) d = if ((i + j =? r) && (j <? length l))%bool then f (nth j l d) else nth j l d.
Proof.
  induction l as [|c l IH]; intros i j d.
  - destruct j; cbn; rewrite andb_false_r; reflexivity.
  - destruct j as [|j].
    + cbn [nth length]. rewrite Nat.add_0_r. cbn. destruct (i =? r); reflexivity.
    + cbn [nth length upd_at]. rewrite IH. replace (S i + j) with (i + S j) by lia. reflexivity.
Qed.
End UpdAt.

Lemma in_flat_map_intro {A B} (f : A -> list B) l x y : In x l -> In y (f x) -> In y (flat_map f l).
Proof. intros. apply in_flat_map. exists x. auto. Qed.

Lemma existsb_exists_false {A} (f : A -> bool) l : existsb f l = false <-> forall x, In x l -> f x = false.
Proof.
  split.
  - intros H x Hx. destruct (f x) eqn:E; [|reflexivity]. assert (existsb f l = true) by (apply existsb_exists; exists x; auto). congruence.
  - intros H. destruct (existsb f l) eqn:E; [|reflexivity]. apply existsb_exists in E as (x & Hx & Ex). rewrite (H x Hx) in Ex. discriminate.
Qed.

Lemma NoDup_app_intro {A} (a b : list A) : NoDup a -> NoDup b -> (forall x, In x a -> In x b -> False) -> NoDup (a ++ b).
Proof.
  induction 1 as [|x a Hx Ha IH]; intros Hb Hd; [exact Hb|]. cbn [app]. constructor.
  - intros Hin. apply in_app_or in Hin as [Hin|Hin]; [exact (Hx Hin)|exact (Hd x (or_introl eq_refl) Hin)].
  - apply IH; [exact Hb|]. intros y Hy. apply Hd. right. exact Hy.
Qed.

Lemma NoDup_app_l {A} (a b : list A) : NoDup (a ++ b) -> NoDup a.
Proof.
  induction a as [|x a IH]; intros H; [constructor|]. cbn [app] in H. inv H. constructor; [|apply IH; assumption].
  intros Hin. match goal with Hn : ~ In x (a ++ b) |- _ => apply Hn end. apply in_or_app. left. exact Hin.
Qed.

(** [Forall] from a function: what a nested induction principle hands to its list cases *)
Definition Forall_all {A} (P : A -> Prop) (f : forall y, P y) : forall l, Forall P l :=
  fix go l := match l with [] => Forall_nil _ | y :: l' => Forall_cons _ (f y) (go l') end.
