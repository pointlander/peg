(** C09 / C14: non-conflicting programs commute under every interleaving; instances of a product
    system see only their own operations. *)
From PegV Require Import Base.Tac Model.Conc.

Section Commute.
Variable V : Type.
Notation store := (store V).
Notation action := (action V).

Lemma respects_proper (a : action) : respects V a -> forall s s', seq_eq V s s' -> seq_eq V (a_fun V a s) (a_fun V a s').
Proof.
  intros [Hw Hd] s s' E k. destruct (in_dec Nat.eq_dec k (a_writes V a)) as [Hin|Hnin].
  - apply Hd; auto.
  - rewrite !Hw by exact Hnin. apply E.
Qed.

Lemma run_proper l : Forall (respects V) l -> forall s s', seq_eq V s s' -> seq_eq V (run V l s) (run V l s').
Proof.
  induction l as [|a l IH]; intros Hl s s' E; cbn [run]; [exact E|].
  inv Hl. apply IH; auto. apply respects_proper; auto.
Qed.

Lemma commute (a b : action) : respects V a -> respects V b -> no_conflict V a b ->
  forall s, seq_eq V (a_fun V a (a_fun V b s)) (a_fun V b (a_fun V a s)).
Proof.
  intros [Hwa Hda] [Hwb Hdb] [D1 D2] s k.
  destruct (in_dec Nat.eq_dec k (a_writes V a)) as [Ka|Ka]; destruct (in_dec Nat.eq_dec k (a_writes V b)) as [Kb|Kb].
  - exfalso. apply (D1 k Ka). apply in_or_app. right. exact Kb.
  - rewrite (Hwb (a_fun V a s) k Kb). apply Hda; auto.
    intros j Hj. apply Hwb. intros Hjb. apply (D2 j Hjb). exact Hj.
  - rewrite (Hwa (a_fun V b s) k Ka). symmetry. apply Hdb; auto.
    intros j Hj. apply Hwa. intros Hja. apply (D1 j Hja). exact Hj.
  - rewrite (Hwa _ k Ka), (Hwb _ k Kb), (Hwb _ k Kb), (Hwa _ k Ka). reflexivity.
Qed.

Lemma run_swap (b : action) p1 : respects V b -> Forall (respects V) p1 -> Forall (fun a => no_conflict V a b) p1 ->
  forall rest, Forall (respects V) rest ->
  forall s, seq_eq V (run V (p1 ++ b :: rest) s) (run V (b :: p1 ++ rest) s).
Proof.
  intros Hb. induction p1 as [|a p1 IH]; intros H1 Hc rest Hr s; cbn [app run]; [intros k; reflexivity|].
  pose proof (Forall_inv H1) as Ra. pose proof (Forall_inv_tail H1) as R1.
  pose proof (Forall_inv Hc) as Ca. pose proof (Forall_inv_tail Hc) as C1.
  intros k. rewrite (IH R1 C1 rest Hr (a_fun V a s) k). cbn [run].
  apply run_proper; [apply Forall_app; auto|]. intros j. symmetry. apply commute; auto.
Qed.

(** every interleaving of two programs without conflicts ends in the state of running them one after the other *)
Theorem interleavings_commute p1 p2 l :
  interleaving V p1 p2 l ->
  Forall (respects V) p1 -> Forall (respects V) p2 ->
  (forall a b, In a p1 -> In b p2 -> no_conflict V a b) ->
  forall s, seq_eq V (run V l s) (run V (p1 ++ p2) s).
Proof.
  induction 1 as [|a p1 p2 l Hi IH|b p1 p2 l Hi IH]; intros H1 H2 Hc s; cbn [app run].
  - intros k; reflexivity.
  - pose proof (Forall_inv_tail H1) as R1. apply IH; auto. intros a' b' Ha' Hb'. apply Hc; [right|]; auto.
  - pose proof (Forall_inv H2) as Rb. pose proof (Forall_inv_tail H2) as R2. intros k.
    rewrite (IH H1 R2 (fun a' b' Ha' Hb' => Hc a' b' Ha' (or_intror Hb')) (a_fun V b s) k).
    symmetry. apply (run_swap b p1 Rb H1); auto.
    rewrite Forall_forall. intros a Ha. apply Hc; [exact Ha|left; reflexivity].
Qed.

(** in no interleaving do two steps of different programs conflict (race-freedom in the
    happens-before sense for a fork/join pair): immediate from the hypothesis, recorded as a statement *)
Theorem no_adjacent_conflict p1 p2 :
  (forall a b, In a p1 -> In b p2 -> no_conflict V a b) ->
  forall a b, In a p1 -> In b p2 ->
    disjoint (a_writes V a) (a_reads V b ++ a_writes V b) /\ disjoint (a_writes V b) (a_reads V a ++ a_writes V a).
Proof. intros H a b Ha Hb. exact (H a b Ha Hb). Qed.

End Commute.

Definition disjoint_b (l1 l2 : list nat) : bool := forallb (fun k => negb (existsb (Nat.eqb k) l2)) l1.
Lemma disjoint_b_ok l1 l2 : disjoint_b l1 l2 = true -> disjoint l1 l2.
Proof.
  unfold disjoint_b, disjoint. rewrite forallb_forall. intros H k Hk Hk2. specialize (H k Hk).
  apply negb_true_iff in H. assert (existsb (Nat.eqb k) l2 = true) by (apply existsb_exists; exists k; split; auto; apply Nat.eqb_refl).
  congruence.
Qed.

Lemma disjoint_incl w r w' a b c :
  disjoint w (r ++ w') -> incl a w -> incl b r -> incl c w' -> disjoint a (b ++ c).
Proof. intros D Ha Hb Hc k Hk Hk2. exact (D k (Ha k Hk) (incl_app_app Hb Hc k Hk2)). Qed.

Section Product.
Variable S O Op : Type.
Variable step : S -> Op -> S * O.

Lemma upd_same (gs : gstate S) i s : upd S gs i s i = s.
Proof. unfold upd. rewrite Nat.eqb_refl. reflexivity. Qed.
Lemma upd_other (gs : gstate S) i j s : j <> i -> upd S gs i s j = gs j.
Proof. unfold upd. intros H. destruct (Nat.eqb_spec j i); [contradiction|reflexivity]. Qed.

(** whatever the schedule, instance i ends in the state, and produces the outputs, of running its own
    operations alone *)
Theorem instances_independent : forall sched (gs : gstate S) i,
  fst (grun S O Op step gs sched) i = fst (lrun S O Op step (gs i) (proj_ops Op i sched)) /\
  proj_outs O i (snd (grun S O Op step gs sched)) = snd (lrun S O Op step (gs i) (proj_ops Op i sched)).
Proof.
  induction sched as [|[j op] rest IH]; intros gs i; [split; reflexivity|].
  unfold proj_ops, proj_outs in *. cbn [grun filter fst snd].
  destruct (step (gs j) op) as [s' o] eqn:Es.
  destruct (grun S O Op step (upd S gs j s') rest) as [gs' outs] eqn:Eg.
  cbn [fst snd filter].
  destruct (IH (upd S gs j s') i) as [I1 I2]. rewrite Eg in I1, I2. cbn [fst snd] in I1, I2.
  destruct (Nat.eqb_spec j i) as [->|Hne].
  - rewrite upd_same in I1, I2. cbn [map snd lrun]. rewrite Es.
    destruct (lrun S O Op step s' (map snd (filter (fun x => fst x =? i) rest))) as [s'' outs'] eqn:El.
    cbn [fst snd] in *. split; [exact I1|]. rewrite I2. reflexivity.
  - rewrite upd_other in I1, I2 by auto.
    split; [exact I1|exact I2].
Qed.

Theorem steps_of_different_instances_commute (gs : gstate S) i j a b : i <> j ->
  forall k, fst (grun S O Op step gs [(i, a); (j, b)]) k = fst (grun S O Op step gs [(j, b); (i, a)]) k.
Proof.
  intros Hne k. cbn [grun].
  destruct (step (gs i) a) as [si oi] eqn:Ei. destruct (step (gs j) b) as [sj oj] eqn:Ej.
  rewrite (upd_other gs i j si) by auto. rewrite Ej.
  rewrite (upd_other gs j i sj) by exact Hne. rewrite Ei. cbn [fst].
  unfold upd. destruct (Nat.eqb_spec k j), (Nat.eqb_spec k i); subst; try reflexivity. contradiction.
Qed.
End Product.
