(** countRules (Model/Analyses.v count_f: depth-first from the first rule, with fuel) marks a set of rules that is
    closed: every name in the body of a marked rule is marked.  The fuel Compile's model gives it is enough. *)
From PegV Require Import Base.Tac Base.ListX Spec.Syntax Model.Analyses Proofs.DiagProofs.
From Coq Require Import Bool.
Import ListNotations.

Section CR.
Variable g : grammar.
Notation count_f := (count_f g).

Definition rget (R : list bool) (r : nat) : bool := nth r R false.
Definition rs (r : nat) : nat := rsize (nth r g RNil).

(** the weight of the rules not yet marked *)
Fixpoint unvk (R : list bool) (k : nat) : nat :=
  match k with O => 0 | S k' => unvk R k' + (if rget R k' then 0 else rs k') end.
Definition unv (R : list bool) : nat := unvk R (length g).

Lemma setb_length R r : length (setb R r) = length R.
Proof. exact (upd_at_length (fun _ => true) r R 0). Qed.
Lemma rget_setb R r j : rget (setb R r) j = if ((j =? r) && (j <? length R))%bool then true else rget R j.
Proof. exact (upd_at_nth (fun _ => true) r R 0 j false). Qed.
Lemma rget_setb_same R r : r < length R -> rget (setb R r) r = true.
Proof. intros Hr. rewrite rget_setb, Nat.eqb_refl. apply Nat.ltb_lt in Hr. rewrite Hr. reflexivity. Qed.
Lemma rget_setb_other R r j : j <> r -> rget (setb R r) j = rget R j.
Proof. intros N. rewrite rget_setb. apply Nat.eqb_neq in N. rewrite N. reflexivity. Qed.
Lemma rget_setb_mono R r j : rget R j = true -> rget (setb R r) j = true.
Proof. intros H. rewrite rget_setb, H. destruct (_ && _)%bool; reflexivity. Qed.
Lemma rget_all_false {A} (l : list A) r : rget (map (fun _ => false) l) r = false.
Proof. exact (nth_map_const false l r). Qed.

(** count_f tests the mark with the other default *)
Lemma unmarked R r : nth r R true = false -> r < length R /\ rget R r = false.
Proof.
  intros Ev. assert (Hr : r < length R).
  { destruct (Nat.lt_ge_cases r (length R)) as [H|H]; [exact H|]. rewrite nth_overflow in Ev by exact H. discriminate. }
  split; [exact Hr|]. unfold rget. rewrite <- Ev. apply nth_indep. exact Hr.
Qed.
Lemma marked R r : nth r R true = true -> r < length R -> rget R r = true.
Proof. intros Ev Hr. unfold rget. rewrite <- Ev. apply nth_indep. exact Hr. Qed.

Lemma unvk_mono R R' : (forall r, rget R r = true -> rget R' r = true) -> forall k, unvk R' k <= unvk R k.
Proof.
  intros H. induction k as [|k IH]; cbn [unvk]; [lia|]. destruct (rget R k) eqn:E; [rewrite (H _ E); lia|]. destruct (rget R' k); lia.
Qed.
Lemma unvk_setb R r : r < length R -> rget R r = false -> forall k,
  unvk (setb R r) k + (if r <? k then rs r else 0) = unvk R k.
Proof.
  intros Hr Hf. induction k as [|k IH]; cbn [unvk]; [reflexivity|].
  destruct (Nat.eq_dec k r) as [->|N].
  - rewrite (rget_setb_same R r Hr), Hf. rewrite Nat.ltb_irrefl in IH. rewrite (proj2 (Nat.ltb_lt r (S r)) (Nat.lt_succ_diag_r r)). lia.
  - rewrite (rget_setb_other R r k N). destruct (Nat.ltb_spec r (S k)) as [L|L]; destruct (Nat.ltb_spec r k) as [L'|L']; lia.
Qed.
Lemma unv_setb R r : r < length R -> r < length g -> rget R r = false -> unv (setb R r) + rs r = unv R.
Proof. intros Hr Hg Hf. pose proof (unvk_setb R r Hr Hf (length g)) as U. apply Nat.ltb_lt in Hg. rewrite Hg in U. exact U. Qed.
Lemma rs_body r b : nth_error g r = Some (RBody b) -> rs r = S (esize b).
Proof. intros E. unfold rs. rewrite (nth_error_nth _ _ _ E). reflexivity. Qed.

Definition Post (ns : list nat) (R R' : list bool) : Prop :=
  length R' = length R /\ (forall r, rget R r = true -> rget R' r = true) /\
  (forall r, In r ns -> r < length g -> rget R' r = true) /\
  (forall r, rget R' r = true -> rget R r = false -> forall b, nth_error g r = Some (RBody b) ->
     forall r', In r' (names_of b) -> r' < length g -> rget R' r' = true).

Lemma Post_refl R : Post [] R R.
Proof. split; [reflexivity|]. split; [auto|]. split; [intros r0 []|intros r0 H1 H2; congruence]. Qed.
Lemma Post_trans n1 n2 R R1 R2 : Post n1 R R1 -> Post n2 R1 R2 -> Post (n1 ++ n2) R R2.
Proof.
  intros (L1 & M1 & N1 & C1) (L2 & M2 & N2 & C2). split; [congruence|]. split; [auto|]. split.
  - intros r Hin Hr. apply in_app_or in Hin as [Hin|Hin]; [apply M2, N1; auto|apply N2; auto].
  - intros r H2 H0 b Hb r' Hr' Hl. destruct (rget R1 r) eqn:E1.
    + apply M2. exact (C1 r E1 H0 b Hb r' Hr' Hl).
    + exact (C2 r H2 E1 b Hb r' Hr' Hl).
Qed.
Lemma Post_names ns ns' R R' : Post ns R R' -> (forall r, In r ns' -> In r ns) -> Post ns' R R'.
Proof. intros (L & M & N & C) H. repeat split; auto. Qed.

(** a first arrival at r: r is marked, then whatever happens from there *)
Lemma Post_mark R r R' : r < length R -> Post [] (setb R r) R' ->
  (forall b, nth_error g r = Some (RBody b) -> forall r', In r' (names_of b) -> r' < length g -> rget R' r' = true) ->
  Post [r] R R'.
Proof.
  intros Hr (L' & M' & _ & C') Hb. split; [rewrite L'; apply setb_length|]. split; [intros r0 H0; apply M', rget_setb_mono, H0|]. split.
  - intros r0 [<-|[]] _. apply M', rget_setb_same, Hr.
  - intros r0 H1 H0 b Hb0. destruct (Nat.eq_dec r0 r) as [->|N]; [exact (Hb b Hb0)|].
    apply (C' r0 H1); [rewrite rget_setb_other by exact N; exact H0|exact Hb0].
Qed.

Lemma unv_post ns R R' : Post ns R R' -> unv R' <= unv R.
Proof. intros (_ & M & _). apply unvk_mono. exact M. Qed.

(** the traversal of a list of sub-expressions, each found in its element by p *)
Lemma fold_post {X} (p : X -> expr) n
  (IH : forall e R C, length R = length g -> esize e + unv R <= n -> Post (names_of e) R (fst (count_f n e (R, C)))) :
  forall xs R C, length R = length g -> fold_right (fun x a => esize (p x) + a) 0 xs + unv R <= n ->
    Post (flat_map (fun x => names_of (p x)) xs) R (fst (fold_left (fun s x => count_f n (p x) s) xs (R, C))).
Proof.
  induction xs as [|x xs IHxs]; intros R C L F; cbn [fold_left flat_map fold_right] in *; [apply Post_refl|].
  pose proof (IH (p x) R C L ltac:(lia)) as P1. destruct (count_f n (p x) (R, C)) as [R1 C1]. cbn [fst] in P1.
  pose proof (unv_post _ _ _ P1) as U1.
  apply (Post_trans _ _ R R1); [exact P1|]. apply IHxs; [destruct P1 as (L1 & _); congruence|lia].
Qed.

Theorem count_f_post n : forall e R C, length R = length g -> esize e + unv R <= n ->
  Post (names_of e) R (fst (count_f n e (R, C))).
Proof.
  induction n as [|n IH]; intros e R C L F; [pose proof (esize_pos e); lia|].
  destruct e; cbn [Analyses.count_f names_of esize Nat.add] in *; apply le_S_n in F; try apply Post_refl; try exact (IH _ R C L F).
  - (* a name *)
    destruct (nth r R true) eqn:Ev; cbn [fst].
    + repeat split; auto; [|intros r0 H1 H2; congruence].
      intros r0 [<-|[]] Hr. apply marked; [exact Ev|congruence].
    + destruct (unmarked R r Ev) as [Hr Hf]. pose proof (unv_setb R r Hr ltac:(lia) Hf) as U.
      destruct (nth_error g r) as [[b|k|]|] eqn:Eg; cbn [fst].
      2-4: apply (Post_mark R r _ Hr (Post_refl _)); intros b0 E0; congruence.
      pose proof (IH b (setb R r) (bump C r) ltac:(rewrite setb_length; exact L) ltac:(rewrite (rs_body r b Eg) in U; lia)) as P.
      apply (Post_mark R r _ Hr); [apply (Post_names _ _ _ _ P); intros ? []|].
      intros b0 E0. rewrite Eg in E0. inv E0. destruct P as (_ & _ & N & _). exact N.
  - exact (fold_post (fun x => x) n IH es R C L F).
  - exact (fold_post (fun x => x) n IH es R C L F).
  - (* switch *)
    pose proof (fold_post snd n IH cs R C L ltac:(lia)) as P1.
    destruct (fold_left (fun s x => count_f n (snd x) s) cs (R, C)) as [R1 C1]. cbn [fst] in P1.
    pose proof (unv_post _ _ _ P1) as U1.
    apply (Post_trans _ _ R R1); [exact P1|]. apply IH; [destruct P1 as (L1 & _); congruence|lia].
Qed.

Lemma unvk_all_false k : k <= length g -> unvk (map (fun _ => false) g) k = fold_right (fun rb a => rsize rb + a) 0 (firstn k g).
Proof.
  induction k as [|k IH]; intros Hk; [reflexivity|]. cbn [unvk]. rewrite IH, rget_all_false by lia. unfold rs.
  rewrite (firstn_snoc RNil g k) by lia. rewrite (sum_snoc rsize). lia.
Qed.
Lemma unv_all_false : unv (map (fun _ => false) g) = gsize g.
Proof. unfold unv. rewrite unvk_all_false by lia. rewrite firstn_all. reflexivity. Qed.

Lemma count_rules_post : g <> [] -> Post [0] (map (fun _ => false) g) (fst (count_rules g)).
Proof.
  intros Hne. unfold count_rules. destruct g as [|rb0 g0] eqn:Eg; [congruence|]. rewrite <- Eg.
  apply (count_f_post _ (EName 0)); [apply map_length|]. rewrite unv_all_false. cbn [esize]. nia.
Qed.

Theorem count_rules_closed : forall r, rget (fst (count_rules g)) r = true -> forall b, nth_error g r = Some (RBody b) ->
  forall r', In r' (names_of b) -> r' < length g -> rget (fst (count_rules g)) r' = true.
Proof.
  intros r Hr b Hb. assert (Hne : g <> []) by (intros E; rewrite E in Hb; destruct r; discriminate).
  destruct (count_rules_post Hne) as (_ & _ & _ & C). exact (C r Hr (rget_all_false g r) b Hb).
Qed.

Theorem count_rules_start : g <> [] -> rget (fst (count_rules g)) 0 = true.
Proof.
  intros Hne. destruct (count_rules_post Hne) as (_ & _ & N & _). apply N; [left; reflexivity|].
  destruct g; [congruence|cbn; lia].
Qed.
End CR.
