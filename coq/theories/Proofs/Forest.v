(** Shape of what the reference semantics returns: the derivation forest of a success is well nested
    (children consecutive and inside their parent, everything inside [start, end] and inside the input),
    and every event of an attempt is a token with begin <= end <= length of the input ([ev_ok]; [ev_le]: a
    success ends at or after its start and inside the input).  The end of the file draws the consequence for
    the token sequence: every token of the flattening of a forest well nested in [lo, hi] lies within those
    bounds ([inb], [wf_forest_toks]). *)
From PegV Require Import Base.Tac Spec.Syntax Spec.Peg Proofs.PegFacts.

Inductive wf_dt : dt -> Prop :=
| wf_node r b e kids : b <= e -> wf_forest b e kids -> wf_dt (Node r b e kids)
with wf_forest : nat -> nat -> list dt -> Prop :=
| wf_nil lo hi : lo <= hi -> wf_forest lo hi []
| wf_cons lo hi r b e kids rest :
    lo <= b -> wf_dt (Node r b e kids) -> wf_forest e hi rest -> wf_forest lo hi (Node r b e kids :: rest).

Lemma wf_forest_le f : forall lo hi, wf_forest lo hi f -> lo <= hi.
Proof.
  induction f as [|[r b e kids] f IH]; intros lo hi H; inv H; auto.
  match goal with H : wf_dt _ |- _ => inv H end.
  match goal with H : wf_forest e hi f |- _ => specialize (IH _ _ H) end. lia.
Qed.

Lemma wf_forest_app f1 : forall lo mid hi f2, wf_forest lo mid f1 -> wf_forest mid hi f2 -> wf_forest lo hi (f1 ++ f2).
Proof.
  induction f1 as [|[r b e kids] f1 IH]; intros lo mid hi f2 H1 H2; cbn.
  - inv H1. pose proof (wf_forest_le _ _ _ H2).
    destruct f2 as [|[r b e kids] f2]; inv H2; constructor; auto; lia.
  - inv H1. econstructor; eauto.
Qed.

Lemma wf_forest_weaken f : forall lo lo' hi, wf_forest lo hi f -> lo' <= lo -> wf_forest lo' hi f.
Proof. intros lo lo' hi H L. inv H; constructor; auto; lia. Qed.

Definition tok_ok (len : nat) (t : tok) : Prop := tk_begin t <= tk_end t /\ tk_end t <= len.
Definition evs_ok (len : nat) (evs : list tok) : Prop := Forall (tok_ok len) evs.

Section Forest.
Variable g : grammar.
Variable ptx : nat.
Variable buf : list rune.
Variable penv : nat -> nat -> bool.
Notation ev := (peg_ev g ptx buf penv).

Definition res_ok (p : nat) (r : out) : Prop :=
  evs_ok (length buf) (snd r) /\
  match fst r with
  | Succ p' f => wf_forest p p' f /\ p' <= length buf
  | Fail => True
  end.

Definition IHf (n : nat) : Prop := forall e p r, p <= length buf -> ev n e p = Some r -> res_ok p r.

Lemma res_ok_fail p evs : evs_ok (length buf) evs -> res_ok p (Fail, evs).
Proof. intros H. split; [exact H|exact I]. Qed.

Lemma res_ok_here p evs : p <= length buf -> evs_ok (length buf) evs -> res_ok p (Succ p [], evs).
Proof. intros Hp H. split; [exact H|]. split; [constructor; lia|exact Hp]. Qed.

Lemma res_ok_seq p p1 f1 evs1 r2 : res_ok p (Succ p1 f1, evs1) -> res_ok p1 r2 -> res_ok p (seq_out f1 evs1 r2).
Proof.
  intros [A [B C]] [A2 B2]. split; [apply Forall_app; split; assumption|].
  destruct r2 as [[|p2 f2] evs2]; cbn [seq_out fst snd] in *; [exact I|].
  destruct B2 as [B2 C2]. split; [eapply wf_forest_app; eauto|exact C2].
Qed.

Lemma term_ok ok p : p <= length buf -> res_ok p (term buf ok p).
Proof.
  intros Hp. unfold term.
  destruct (nth_error buf p) eqn:E; [destruct (ok r)|]; try (apply res_ok_fail; constructor).
  assert (p < length buf) by (apply nth_error_Some; congruence).
  split; [constructor|]. split; [constructor|]; lia.
Qed.

Lemma seq_ok n (IH : IHf n) : forall es p r, p <= length buf -> seq_ev (ev n) es p = Some r -> res_ok p r.
Proof.
  induction es as [|e es IHes]; intros p r Hp H; cbn [seq_ev] in H.
  - inv H. apply res_ok_here; [exact Hp|constructor].
  - destruct (ev n e p) as [[[|p1 f1] evs1]|] eqn:E; try discriminate; pose proof (IH _ _ _ Hp E) as S1; [inv H; exact S1|].
    rewrite seq_out_eq in H. destruct (seq_ev (ev n) es p1) as [r2|] eqn:E2; inv H.
    exact (res_ok_seq _ _ _ _ _ S1 (IHes _ _ (proj2 (proj2 S1)) E2)).
Qed.

Lemma alt_ok n (IH : IHf n) : forall es p r, p <= length buf -> alt_ev (ev n) es p = Some r -> res_ok p r.
Proof.
  induction es as [|e es IHes]; intros p r Hp H; cbn [alt_ev] in H.
  - inv H. apply res_ok_fail. constructor.
  - destruct (ev n e p) as [[[|p1 f1] evs1]|] eqn:E; try discriminate; pose proof (IH _ _ _ Hp E) as [A B]; [|inv H; split; assumption].
    destruct es as [|e2 es]; [inv H; split; assumption|].
    destruct (alt_ev (ev n) (e2 :: es) p) as [[r2 evs2]|] eqn:E2; try discriminate. inv H.
    destruct (IHes _ _ Hp E2) as [A2 B2]. split; [apply Forall_app; split; assumption|exact B2].
Qed.

Lemma wrap_ok r p p1 f1 evs1 : p <= length buf -> res_ok p (Succ p1 f1, evs1) ->
  res_ok p (Succ p1 [Node r p p1 f1], evs1 ++ [(r, (p, p1))]).
Proof.
  intros Hp [A [B C]]. cbn [fst snd] in *. pose proof (wf_forest_le _ _ _ B).
  split; cbn [fst snd].
  - apply Forall_app; split; auto. constructor; [|constructor]. split; cbn; lia.
  - split; auto. econstructor; [lia| |constructor; lia]. constructor; auto.
Qed.

Lemma ev_ok n : IHf n.
Proof.
  induction n as [|n IH]; intros e p r Hp H; [discriminate|].
  destruct e; cbn [peg_ev] in H.
  - inv H. apply term_ok; auto.
  - inv H. apply term_ok; auto.
  - inv H. apply term_ok; auto.
  - destruct (nth_error g r0) as [[b|k|]|]; try discriminate.
    + destruct (ev n b p) as [[[|p1 f1] evs1]|] eqn:E; try discriminate; inv H.
      * exact (IH _ _ _ Hp E).
      * apply wrap_ok; auto. exact (IH _ _ _ Hp E).
    + inv H. apply (wrap_ok r0 p p [] []); auto. apply res_ok_here; [exact Hp|constructor].
  - inv H. destruct (penv k p); [apply res_ok_here; [exact Hp|]|apply res_ok_fail]; constructor.
  - inv H. apply res_ok_here; [exact Hp|constructor].
  - inv H. apply res_ok_here; [exact Hp|constructor].
  - inv H. apply res_ok_here; [exact Hp|constructor].
  - eapply seq_ok; eauto.
  - eapply alt_ok; eauto.
  - destruct (ev n e p) as [[[|p1 f1] evs1]|] eqn:E; try discriminate; inv H; destruct (IH _ _ _ Hp E) as [A _];
      [apply res_ok_fail|apply res_ok_here]; auto.
  - destruct (ev n e p) as [[[|p1 f1] evs1]|] eqn:E; try discriminate; inv H; destruct (IH _ _ _ Hp E) as [A _];
      [apply res_ok_here|apply res_ok_fail]; auto.
  - destruct (ev n e p) as [[[|p1 f1] evs1]|] eqn:E; try discriminate; inv H; pose proof (IH _ _ _ Hp E) as S1;
      [apply res_ok_here; [exact Hp|apply S1]|exact S1].
  - destruct (ev n e p) as [[[|p1 f1] evs1]|] eqn:E; try discriminate; pose proof (IH _ _ _ Hp E) as S1.
    + inv H. apply res_ok_here; [exact Hp|apply S1].
    + rewrite seq_out_eq in H. destruct (ev n (EStar e) p1) as [r2|] eqn:E2; inv H.
      exact (res_ok_seq _ _ _ _ _ S1 (IH _ _ _ (proj2 (proj2 S1)) E2)).
  - destruct (ev n e p) as [[[|p1 f1] evs1]|] eqn:E; try discriminate; pose proof (IH _ _ _ Hp E) as S1; [inv H; exact S1|].
    rewrite seq_out_eq in H. destruct (ev n (EStar e) p1) as [r2|] eqn:E2; inv H.
    exact (res_ok_seq _ _ _ _ _ S1 (IH _ _ _ (proj2 (proj2 S1)) E2)).
  - destruct (ev n e p) as [[[|p1 f1] evs1]|] eqn:E; try discriminate; inv H.
    + exact (IH _ _ _ Hp E).
    + apply wrap_ok; auto. exact (IH _ _ _ Hp E).
  - destruct (nth_error buf p) as [c|]; [destruct (find_case cs c)|]; eapply IH; eauto.
Qed.

Lemma ev_le n e p p' f evs : p <= length buf -> ev n e p = Some (Succ p' f, evs) -> p <= p' /\ p' <= length buf.
Proof.
  intros Hp H. destruct (ev_ok n e p _ Hp H) as [_ [W B]]. cbn [fst] in *.
  split; [eapply wf_forest_le; eauto|exact B].
Qed.

End Forest.

Scheme wf_dt_mut := Minimality for wf_dt Sort Prop
  with wf_forest_mut := Minimality for wf_forest Sort Prop.

Definition inb (lo hi : nat) (t : tok) : Prop := lo <= tk_begin t /\ tk_begin t <= tk_end t /\ tk_end t <= hi.

Lemma inb_weaken lo hi lo' hi' l : lo' <= lo -> hi <= hi' -> Forall (inb lo hi) l -> Forall (inb lo' hi') l.
Proof. intros A B H. eapply Forall_impl; [|exact H]. unfold inb. intros; lia. Qed.

Lemma flat_cons t f : flat (t :: f) = postorder t ++ flat f.
Proof. reflexivity. Qed.

Lemma wf_forest_toks : forall lo hi f, wf_forest lo hi f -> Forall (inb lo hi) (flat f).
Proof.
  apply (wf_forest_mut
           (fun t => match t with Node r b e kids => Forall (inb b e) (postorder t) end)
           (fun lo hi f => Forall (inb lo hi) (flat f))).
  - intros r b e kids Hbe Hk IH. rewrite postorder_node. apply Forall_app. split; [exact IH|].
    constructor; [|constructor]. unfold inb; cbn; lia.
  - intros lo hi H. constructor.
  - intros lo hi r b e kids rest Hlo Hdt IHt Hrest IHr.
    pose proof (wf_forest_le _ _ _ Hrest). inv Hdt.
    rewrite flat_cons. apply Forall_app. split.
    + eapply inb_weaken; [| |exact IHt]; lia.
    + eapply inb_weaken; [| |exact IHr]; lia.
Qed.
