(** Facts about Compile's first passes (Model/Link.v): actions are numbered in the order they are met
    (pre-order over the rules in definition order), the rules created for them carry those numbers in
    order, and the linked tree has no dangling reference. *)
From PegV Require Import Base.Tac Spec.Syntax Model.Link Model.Emit Proofs.EmitWF.

Fixpoint acts_of (e : expr) : list nat :=
  match e with
  | EAct k => [k]
  | ESeq es | EAlt es => flat_map acts_of es
  | EAnd e1 | ENot e1 | EQuery e1 | EStar e1 | EPlus e1 | EPush e1 => acts_of e1
  | _ => []
  end.

Fixpoint names_of_e (e : expr) : list nat :=
  match e with
  | EName r => [r]
  | ESeq es | EAlt es => flat_map names_of_e es
  | EAnd e1 | ENot e1 | EQuery e1 | EStar e1 | EPlus e1 | EPush e1 => names_of_e e1
  | _ => []
  end.

Definition ract_ids (l : list rbody) : list nat :=
  flat_map (fun rb => match rb with RAct k => [k] | _ => [] end) l.

Section LinkFacts.
Variable nuser : nat.
Notation link_e := (link_e nuser).
Notation next_slot := (next_slot nuser).

Definition linv (st : lstate) : Prop :=
  ract_ids (l_app st) = seq 0 (length (l_acts st)) /\
  (forall n i, In (n, i) (l_undef st) -> i < next_slot st) /\
  (forall i, l_ptx st = Some i -> i < next_slot st) /\
  (forall rb, In rb (l_app st) -> match rb with RBody _ => False | _ => True end).

Definition lstep (st st' : lstate) (acts : list nat) : Prop :=
  l_acts st' = l_acts st ++ acts /\ (exists ext, l_app st' = l_app st ++ ext) /\ (linv st -> linv st').

Lemma lstep_refl st : lstep st st [].
Proof. split; [rewrite app_nil_r; reflexivity|]. split; [exists []; rewrite app_nil_r; reflexivity|auto]. Qed.

Lemma lstep_trans st1 st2 st3 a b : lstep st1 st2 a -> lstep st2 st3 b -> lstep st1 st3 (a ++ b).
Proof.
  intros (A1 & (x & A2) & A3) (B1 & (y & B2) & B3). split; [rewrite B1, A1, app_assoc; reflexivity|].
  split; [exists (x ++ y); rewrite B2, A2, app_assoc; reflexivity|auto].
Qed.

Lemma next_mono st st' a : lstep st st' a -> next_slot st <= next_slot st'.
Proof. intros (_ & (x & E) & _). unfold Link.next_slot. rewrite E, app_length. lia. Qed.

Lemma ract_ids_app a b : ract_ids (a ++ b) = ract_ids a ++ ract_ids b.
Proof. unfold ract_ids. apply flat_map_app. Qed.

Lemma lookup_u_in l n i : lookup_u l n = Some i -> In (n, i) l.
Proof.
  induction l as [|[m j] l IH]; cbn [lookup_u]; [discriminate|].
  destruct (Nat.eqb_spec n m) as [->|Hne]; [intros E; inv E; left; reflexivity|intros H; right; auto].
Qed.

(** the elementary steps append one rule without a body; the new bookkeeping may point at it *)
Lemma step_snoc st rb u p a :
  ract_ids [rb] = seq (length (l_acts st)) (length a) ->
  match rb with RBody _ => False | _ => True end ->
  (forall n i, In (n, i) u -> In (n, i) (l_undef st) \/ i = next_slot st) ->
  (forall i, p = Some i -> l_ptx st = Some i \/ i = next_slot st) ->
  lstep st (mkl (l_app st ++ [rb]) u p (l_acts st ++ a)) a.
Proof.
  intros Hid Hrb Hu Hp. split; [reflexivity|]. split; [eexists; reflexivity|]. intros (I1 & I2 & I3 & I4).
  unfold linv, Link.next_slot in *. cbn [l_app l_undef l_ptx l_acts]. rewrite !app_length. cbn [length].
  split; [rewrite ract_ids_app, I1, Hid, seq_app; reflexivity|].
  split; [intros n i Hi; destruct (Hu n i Hi) as [H| ->]; [specialize (I2 n i H)|]; lia|].
  split; [intros i Hi; destruct (Hp i Hi) as [H| ->]; [specialize (I3 i H)|]; lia|].
  intros x Hx. apply in_app_or in Hx as [Hx|[<-|[]]]; [exact (I4 x Hx)|exact Hrb].
Qed.

Lemma step_act st k :
  lstep st (mkl (l_app st ++ [RAct (length (l_acts st))]) (l_undef st) (l_ptx st) (l_acts st ++ [k])) [k].
Proof. apply step_snoc; [reflexivity|exact I|auto|auto]. Qed.

Lemma step_undef st n :
  lstep st (mkl (l_app st ++ [RNil]) ((n, next_slot st) :: l_undef st) (l_ptx st) (l_acts st)) [].
Proof.
  rewrite <- (app_nil_r (l_acts st)). apply step_snoc; [reflexivity|exact I| |auto].
  intros m i [E|H]; [inv E; right; reflexivity|left; exact H].
Qed.

Lemma step_ptx st : lstep st (mkl (l_app st ++ [RNil]) (l_undef st) (Some (next_slot st)) (l_acts st)) [].
Proof.
  rewrite <- (app_nil_r (l_acts st)). apply step_snoc; [reflexivity|exact I|auto|].
  intros i E. inv E. right. reflexivity.
Qed.

Definition espec (e : expr) : Prop :=
  forall st e' st', link_e e st = (e', st') ->
    lstep st st' (acts_of e) /\ (linv st -> forall r, In r (names_of_e e') -> r < next_slot st').

(** the traversal of a sequence or choice inside [link_e] is [link_rules] *)
Lemma link_e_seq es st : link_e (ESeq es) st = let '(es', st') := link_rules nuser es st in (ESeq es', st').
Proof. reflexivity. Qed.
Lemma link_e_alt es st : link_e (EAlt es) st = let '(es', st') := link_rules nuser es st in (EAlt es', st').
Proof. reflexivity. Qed.

Lemma list_spec (es : list expr) : Forall espec es ->
  forall st es' st', link_rules nuser es st = (es', st') ->
    lstep st st' (flat_map acts_of es) /\ (linv st -> forall r, In r (flat_map names_of_e es') -> r < next_slot st') /\
    length es' = length es.
Proof.
  induction 1 as [|x es Hx Hes IH]; intros st es' st' H; cbn [link_rules] in H.
  - inv H. split; [apply lstep_refl|]. split; [intros _ r []|reflexivity].
  - destruct (link_e x st) as [x' st1] eqn:Ex. destruct (link_rules nuser es st1) as [l'' st2] eqn:El. inv H.
    destruct (Hx _ _ _ Ex) as [S1 N1]. destruct (IH _ _ _ El) as (S2 & N2 & L2).
    split; [cbn [flat_map]; eapply lstep_trans; eauto|]. split; [|cbn [length]; rewrite L2; reflexivity].
    intros Hi r Hr. cbn [flat_map] in Hr. apply in_app_or in Hr as [Hr|Hr].
    + specialize (N1 Hi r Hr). pose proof (next_mono _ _ _ S2). lia.
    + apply N2; [|exact Hr]. destruct S1 as (_ & _ & K). auto.
Qed.

Lemma link_e_spec : forall e, espec e.
Proof.
  induction e using expr_ind2; intros st e' st' H'.
  (* the operators with one operand, but for the capture: the 11th to the 15th constructor of [expr] *)
  11-15: (cbn [Link.link_e] in H'; destruct (link_e e st) as [e1 st1] eqn:E; inv H'; exact (IHe _ _ _ E)).
  (* expressions that are left as they are *)
  all: try (inv H'; split; [apply lstep_refl|intros _ r []]; fail).
  - (* EName *) cbn [Link.link_e] in H'.
    destruct (Nat.ltb_spec r nuser) as [L|L].
    + inv H'. split; [apply lstep_refl|]. intros _ r0 [<-|[]]. unfold Link.next_slot. lia.
    + destruct (lookup_u (l_undef st) r) as [i|] eqn:El.
      * inv H'. split; [apply lstep_refl|]. intros (_ & I2 & _ & _) r0 [<-|[]]. apply (I2 r). apply lookup_u_in. exact El.
      * inv H'. split; [apply step_undef|]. intros _ r0 [<-|[]]. unfold Link.next_slot. cbn [l_app]. rewrite app_length. cbn. lia.
  - (* EAct *) inv H'. split; [apply step_act|]. intros _ r0 [<-|[]]. unfold Link.next_slot. cbn [l_app]. rewrite app_length. cbn. lia.
  - (* ESeq *) rewrite link_e_seq in H'. destruct (link_rules nuser es st) as [es' st2] eqn:El. inv H'.
    destruct (list_spec es H _ _ _ El) as (S1 & N1 & _). split; assumption.
  - (* EAlt *) rewrite link_e_alt in H'. destruct (link_rules nuser es st) as [es' st2] eqn:El. inv H'.
    destruct (list_spec es H _ _ _ El) as (S1 & N1 & _). split; assumption.
  - (* EPush *) cbn [Link.link_e] in H'.
    set (st1 := match l_ptx st with Some _ => st | None => mkl (l_app st ++ [RNil]) (l_undef st) (Some (next_slot st)) (l_acts st) end) in *.
    destruct (link_e e st1) as [e1 st2] eqn:E. inv H'.
    assert (S0 : lstep st st1 []) by (unfold st1; destruct (l_ptx st); [apply lstep_refl|apply step_ptx]).
    destruct (IHe _ _ _ E) as [S1 N1]. split; [exact (lstep_trans _ _ _ _ _ S0 S1)|].
    intros Hi. apply N1. destruct S0 as (_ & _ & K). auto.
Qed.

Lemma link_rules_spec : forall bodies st bs st', link_rules nuser bodies st = (bs, st') ->
  lstep st st' (flat_map acts_of bodies) /\ (linv st -> forall r, In r (flat_map names_of_e bs) -> r < next_slot st') /\
  length bs = length bodies.
Proof. intros bodies. apply list_spec, Forall_forall. intros e _. apply link_e_spec. Qed.

Lemma linv_start : linv (mkl [] [] None []).
Proof. split; [reflexivity|]. split; [intros n i []|]. split; [intros i Hi; discriminate|intros rb []]. Qed.

End LinkFacts.

Definition grammar_names (g : grammar) : list nat :=
  flat_map (fun rb => match rb with RBody b => names_of_e b | _ => [] end) g.

Lemma link_inv bodies g ptx acts :
  link bodies = (g, ptx, acts) ->
  exists bs st, link_rules (length bodies) bodies (mkl [] [] None []) = (bs, st) /\
    g = map RBody bs ++ l_app st /\ ptx = l_ptx st /\ acts = l_acts st /\ linv (length bodies) st.
Proof.
  unfold link. destruct (link_rules (length bodies) bodies (mkl [] [] None [])) as [bs st] eqn:E. intros H. inv H.
  exists bs, st. do 4 (split; [reflexivity|]). destruct (link_rules_spec _ _ _ _ _ E) as ((_ & _ & A3) & _). apply A3, linv_start.
Qed.

Theorem link_facts bodies g ptx acts :
  link bodies = (g, ptx, acts) ->
  (* actions are numbered in the order they are met *)
  acts = flat_map acts_of bodies /\
  (* the rules created for them carry these numbers, in order, behind the user's rules *)
  ract_ids g = seq 0 (length acts) /\
  (forall i b, nth_error bodies i = Some b -> exists b', nth_error g i = Some (RBody b')) /\
  (* no dangling reference, and the capture rule exists when it is named *)
  (forall r, In r (grammar_names g) -> r < length g) /\
  (forall i, ptx = Some i -> i < length g).
Proof.
  intros H. destruct (link_inv _ _ _ _ H) as (bs & st & E & -> & -> & -> & J1 & J2 & J3 & J4).
  destruct (link_rules_spec (length bodies) bodies _ _ _ E) as ((A1 & _) & N & L). cbn [l_acts app] in A1.
  assert (Hlen : length (map RBody bs ++ l_app st) = next_slot (length bodies) st).
  { rewrite app_length, map_length, L. reflexivity. }
  split; [exact A1|]. split; [|split; [|split]].
  - rewrite ract_ids_app. replace (ract_ids (map RBody bs)) with (@nil nat); [exact J1|].
    clear. induction bs as [|b bs IH]; [reflexivity|exact IH].
  - intros i b Hb. assert (Hi : i < length bs) by (rewrite L; apply nth_error_Some; congruence).
    destruct (nth_error bs i) as [b'|] eqn:Eb; [|apply nth_error_None in Eb; lia].
    exists b'. rewrite nth_error_app1 by (rewrite map_length; exact Hi). rewrite nth_error_map, Eb. reflexivity.
  - intros r Hr. rewrite Hlen. unfold grammar_names in Hr. rewrite flat_map_app in Hr. apply in_app_or in Hr as [Hr|Hr].
    + apply (N (linv_start _)). clear -Hr. induction bs as [|b bs IH]; [destruct Hr|]. cbn [map flat_map] in *. apply in_app_or in Hr as [Hr|Hr]; apply in_or_app; auto.
    + exfalso. apply in_flat_map in Hr as (rb & Hrb & Hr). specialize (J4 rb Hrb). destruct rb; [destruct J4|destruct Hr|destruct Hr].
  - intros i Hi. rewrite Hlen. apply J3. exact Hi.
Qed.

Theorem link_shape bodies g ptx acts :
  link bodies = (g, ptx, acts) ->
  exists bs app, g = map RBody bs ++ app /\ forall rb, In rb app -> forall x, rb <> RBody x.
Proof.
  intros H. destruct (link_inv _ _ _ _ H) as (bs & st & _ & -> & _ & _ & _ & _ & _ & J4).
  exists bs, (l_app st). split; [reflexivity|]. intros rb Hrb x ->. exact (J4 _ Hrb).
Qed.

(** with the emission theorem (Proofs/EmitWF.v): every tree these passes produce is emitted well *)
Theorem emit_linked_wellformed bodies g ptx acts :
  link bodies = (g, ptx, acts) ->
  forall ast inline asu undef,
    Forall (fun o => match o with Some F => fn_ok F | None => True end) (emit_all g ast inline asu undef).
Proof.
  intros H ast inline asu undef.
  destruct (link_shape bodies g ptx acts H) as (bs & app & -> & Happ).
  apply emit_all_wellformed_linked. exact Happ.
Qed.
