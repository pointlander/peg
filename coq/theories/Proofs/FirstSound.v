(** Soundness of the first-set analysis of -switch (Model/Optimize.v): for any table T that is
    consistent with the grammar (a post-fixed point, checked by [t_ok_b]; no least-ness needed),
    whenever an expression succeeds having consumed, the first consumed character is in its set, and
    an expression flagged "must consume" never succeeds without consuming. *)
From PegV Require Import Base.Tac Spec.Syntax Spec.Peg Model.SetImpl Model.Optimize Proofs.SetProofs Proofs.PegInv Proofs.Forest.
Open Scope Z_scope.

Lemma inv_b_ok l : forall lo, inv_b lo l = true -> inv_from lo l.
Proof.
  induction l as [|[b e] l IH]; intros lo H; cbn [inv_b inv_from] in *; [exact I|].
  apply andb_true_iff in H as [H H3]. apply andb_true_iff in H as [H1 H2].
  split; [lia|]. split; [lia|]. apply IH. exact H3.
Qed.

(** a list zipped with the positions of its members, the form in which the passes walk the rules *)
Lemma nth_error_zip_seq {A} (l : list A) : forall s k,
  nth_error (combine (seq s (length l)) l) k = option_map (pair (s + k)%nat) (nth_error l k).
Proof.
  induction l as [|y l IH]; intros s k; [destruct k; reflexivity|].
  destruct k; cbn [length seq combine nth_error option_map]; [rewrite Nat.add_0_r; reflexivity|].
  rewrite IH, Nat.add_succ_comm. reflexivity.
Qed.

Lemma subset_b_ok s t x : Inv s -> Inv t -> subset_b s t = true -> mem s x = true -> mem t x = true.
Proof.
  intros Hs Ht H Hx. unfold subset_b in H.
  pose proof (proj1 (equal_spec (union t s) t (union_inv t s Ht Hs) Ht) H x) as E.
  rewrite union_mem in E by auto. rewrite Hx, orb_true_r in E. congruence.
Qed.

Lemma subset_b_refl s : Inv s -> subset_b s s = true.
Proof.
  intros Hs. apply equal_spec; [apply union_inv; exact Hs|exact Hs|].
  intros x. rewrite union_mem by exact Hs. apply orb_diag.
Qed.

Section Sets.
Variable T : list fsres.

Lemma fs_seq_cons x es : fs T (ESeq (x :: es)) =
  if fst (fs T x) then (true, snd (fs T x)) else (fst (fs T (ESeq es)), union (snd (fs T (ESeq es))) (snd (fs T x))).
Proof. reflexivity. Qed.

Lemma fs_alt_acc es : Forall (fun x => Inv (snd (fs T x))) es -> forall acc, Inv (snd acc) ->
  let res := fold_left (fun acc x => let r := fs T x in (fst acc && fst r, union (snd acc) (snd r))) es acc in
  Inv (snd res) /\ fst res = fst acc && forallb (fun x => fst (fs T x)) es /\
  forall c, mem (snd res) c = mem (snd acc) c || existsb (fun x => mem (snd (fs T x)) c) es.
Proof.
  induction 1 as [|x es Hx Hes IH]; intros acc Ha; cbn [fold_left forallb existsb].
  - split; [exact Ha|]. split; [rewrite andb_true_r; reflexivity|intros c; rewrite orb_false_r; reflexivity].
  - destruct (IH (fst acc && fst (fs T x), union (snd acc) (snd (fs T x))) (union_inv _ _ Ha Hx)) as (I1 & I2 & I3).
    cbn [fst snd] in *. split; [exact I1|]. split; [rewrite I2, andb_assoc; reflexivity|].
    intros c. rewrite I3, union_mem by auto. rewrite orb_assoc. reflexivity.
Qed.

Lemma fs_alt es : Forall (fun x => Inv (snd (fs T x))) es ->
  Inv (snd (fs T (EAlt es))) /\ fst (fs T (EAlt es)) = forallb (fun x => fst (fs T x)) es /\
  forall c, mem (snd (fs T (EAlt es))) c = existsb (fun x => mem (snd (fs T x)) c) es.
Proof. intros H. exact (fs_alt_acc es H (true, []) I). Qed.

(** every computed set satisfies the representation invariant, so that the C16 theorems apply *)
Lemma fs_inv_of : (forall r, Inv (snd (tget T r))) -> forall e, ranges_ok e = true -> Inv (snd (fs T e)).
Proof.
  intros HT. induction e using expr_ind2; cbn [ranges_ok]; intros Hr; try exact I; try (cbn [fs snd]; auto; fail).
  - cbn [fs snd]. unfold Inv, maxRune. cbn [inv_from]. lia.
  - apply Z.leb_le in Hr. cbn [fs snd]. unfold Inv. cbn [inv_from]. lia.
  - apply andb_true_iff in Hr as [H1 H2]. apply Z.leb_le in H1, H2. apply add_range_inv; [exact I|lia|lia].
  - induction H as [|x es Hx Hes IHes]; cbn [forallb] in Hr; [exact I|]. apply andb_true_iff in Hr as [Hr1 Hr2].
    rewrite fs_seq_cons. destruct (fst (fs T x)); cbn [snd]; [auto|]. apply union_inv; auto.
  - apply fs_alt. rewrite forallb_forall in Hr. rewrite Forall_forall in *. auto.
Qed.
End Sets.

Section FS.
Variable g : grammar.
Variable T : list fsres.

Notation rule_t_ok := (Optimize.rule_t_ok T).
Notation t_ok_b := (Optimize.t_ok_b g T).

Hypothesis Hok : t_ok_b = true.

Lemma T_inv r : Inv (snd (tget T r)).
Proof.
  unfold tget. destruct (nth_in_or_default r T (false, [])) as [Hin|E]; [|rewrite E; exact I].
  apply andb_true_iff in Hok as [H _]. rewrite forallb_forall in H. apply inv_b_ok. apply H. exact Hin.
Qed.

Lemma rule_ok r rb : nth_error g r = Some rb -> rule_t_ok r rb = true.
Proof.
  intros Hr. apply andb_true_iff in Hok as [_ H]. rewrite forallb_forall in H.
  apply (H (r, rb)). apply (nth_error_In _ r). rewrite nth_error_zip_seq, Hr. reflexivity.
Qed.

Lemma fs_inv e : ranges_ok e = true -> Inv (snd (fs T e)).
Proof. exact (fs_inv_of T T_inv e). Qed.

Section Sound.
Local Open Scope nat_scope.
Variable ptx : nat.
Variable buf : list rune.
Variable penv : nat -> nat -> bool.
Notation ev := (peg_ev g ptx buf penv).

(** what a (consumes, set) pair claims about an expression *)
Definition fs_ok (cs : fsres) (n : nat) (e : expr) : Prop :=
  forall p p' f evs, p <= length buf -> ev n e p = Some (Succ p' f, evs) ->
    (fst cs = true -> p < p') /\
    ((p < p') -> exists c, nth_error buf p = Some c /\ mem (snd cs) c = true).

Lemma term_fs ok S n e :
  (forall p, ev (Datatypes.S n) e p = Some (term buf ok p)) ->
  (forall c, ok c = true -> mem S c = true) ->
  fs_ok (true, S) (Datatypes.S n) e.
Proof.
  intros He Hm p p' f evs Hp H. rewrite He in H. unfold term in H.
  destruct (nth_error buf p) as [c|] eqn:Ec; [|discriminate]. destruct (ok c) eqn:Eo; [|discriminate]. inv H.
  split; [intros _; lia|]. intros _. exists c. auto.
Qed.

(** runes of the buffer are code points (what []rune(string) yields) *)
Hypothesis Hbuf : forall c, In c buf -> (0 <= c <= maxRune)%Z.

Lemma fs_ok_weaken (cs cs' : fsres) n e :
  fs_ok cs n e -> (fst cs' = true -> fst cs = true) -> (forall x, mem (snd cs) x = true -> mem (snd cs') x = true) ->
  fs_ok cs' n e.
Proof.
  intros H Hc Hs p p' f evs Hp He. destruct (H p p' f evs Hp He) as [A B]. split; [auto|].
  intros L. destruct (B L) as (c & Hc1 & Hc2). exists c. auto.
Qed.

Lemma no_consume_fs cs n e :
  (forall p p' f evs, ev n e p = Some (Succ p' f, evs) -> p' = p) -> fst cs = false -> fs_ok cs n e.
Proof.
  intros H Hc p p' f evs Hp He. rewrite (H _ _ _ _ He). split; [rewrite Hc; discriminate|lia].
Qed.

(** [a], then [b] from where [a] stopped: the two consume if either must, and the first character consumed
    is one of [a]'s, or one of [b]'s when [a] need not consume *)
Lemma then_fs {ca cb na a nb b p p1 p' f1 evs1 f2 evs2} {cs : fsres} :
  fs_ok ca na a -> fs_ok cb nb b -> p <= length buf ->
  ev na a p = Some (Succ p1 f1, evs1) -> ev nb b p1 = Some (Succ p' f2, evs2) ->
  (fst cs = true -> fst ca = true \/ fst cb = true) ->
  (forall c, mem (snd ca) c = true -> mem (snd cs) c = true) ->
  (fst ca = false -> forall c, mem (snd cb) c = true -> mem (snd cs) c = true) ->
  (fst cs = true -> p < p') /\ (p < p' -> exists c, nth_error buf p = Some c /\ mem (snd cs) c = true).
Proof.
  intros Ha Hb Hp E1 E2 Hc Hsa Hsb.
  destruct (ev_le g ptx buf penv _ _ _ _ _ _ Hp E1) as [L1 B1]. destruct (ev_le g ptx buf penv _ _ _ _ _ _ B1 E2) as [L2 _].
  destruct (Ha _ _ _ _ Hp E1) as [A1 A2]. destruct (Hb _ _ _ _ B1 E2) as [A3 A4]. split.
  - intros H. destruct (Hc H) as [H1|H1]; [exact (Nat.lt_le_trans _ _ _ (A1 H1) L2)|exact (Nat.le_lt_trans _ _ _ L1 (A3 H1))].
  - intros L. destruct (Nat.eq_dec p p1) as [<-|Hne].
    + destruct (A4 L) as (c & Hc1 & Hc2). exists c. split; [exact Hc1|]. apply Hsb; [|exact Hc2].
      destruct (fst ca); [|reflexivity]. exfalso. exact (Nat.lt_irrefl _ (A1 eq_refl)).
    + destruct (A2 (proj2 (Nat.le_neq _ _) (conj L1 Hne))) as (c & Hc1 & Hc2). exists c. auto.
Qed.

Theorem first_sound n : forall e, ranges_ok e = true -> fs_ok (fs T e) n e.
Proof.
  induction n as [|n IH]; intros e Hr; [intros p p' f evs Hp H; discriminate|].
  destruct e; cbn [ranges_ok] in Hr.
  - (* EDot *)
    intros p p' f evs Hp H. cbn [peg_ev] in H. unfold term in H.
    destruct (nth_error buf p) as [c|] eqn:Ec; [|discriminate]. inv H.
    split; [intros _; lia|]. intros _. exists c. split; [reflexivity|].
    cbn [fs snd]. rewrite mem_cons, mem_nil. pose proof (Hbuf c (nth_error_In _ _ Ec)). unfold maxRune in *.
    destruct (Z.leb_spec 0%Z c); destruct (Z.leb_spec c 1114111%Z); cbn; auto; lia.
  - (* EChar *)
    apply (term_fs (Z.eqb c)); [intros; reflexivity|]. intros x Hx. apply Z.eqb_eq in Hx. subst x.
    cbn [fs snd]. rewrite mem_cons, mem_nil. rewrite !Z.leb_refl. reflexivity.
  - (* ERange *)
    apply andb_true_iff in Hr as [H1 H2]. apply Z.leb_le in H1, H2.
    apply (term_fs (in_range lo hi)); [intros; reflexivity|]. intros x Hx. cbn [fs snd].
    rewrite (add_range_mem [] 0%Z) by (cbn; auto). rewrite mem_nil. cbn [orb]. exact Hx.
  - (* EName *)
    intros p p' f evs Hp H. cbn [peg_ev] in H. cbn [fs].
    destruct (nth_error g r) as [[b|k|]|] eqn:Eg; try discriminate.
    + pose proof (rule_ok _ _ Eg) as Hk. cbn [rule_t_ok] in Hk.
      apply andb_true_iff in Hk as [Hk Hsub]. apply andb_true_iff in Hk as [Hrb Himp].
      destruct (ev n b p) as [[[|p1 f1] evs1]|] eqn:E; try discriminate. inv H.
      refine (fs_ok_weaken _ _ n b (IH b Hrb) _ _ p p' f1 evs1 Hp E).
      * intros Hc. rewrite Hc in Himp. exact Himp.
      * intros x. exact (subset_b_ok _ _ x (fs_inv b Hrb) (T_inv r) Hsub).
    + pose proof (rule_ok _ _ Eg) as Hk. cbn [rule_t_ok] in Hk. apply negb_true_iff in Hk.
      inv H. split; [rewrite Hk; discriminate|lia].
  - apply no_consume_fs; [|reflexivity]. intros p p' f evs H. cbn [peg_ev] in H. destruct (penv k p); inv H. reflexivity.
  - apply no_consume_fs; [|reflexivity]. intros p p' f evs H. cbn [peg_ev] in H. inv H. reflexivity.
  - apply no_consume_fs; [|reflexivity]. intros p p' f evs H. cbn [peg_ev] in H. inv H. reflexivity.
  - apply no_consume_fs; [|reflexivity]. intros p p' f evs H. cbn [peg_ev] in H. inv H. reflexivity.
  - (* ESeq *)
    revert Hr. induction es as [|x es IHes]; intros Hr p p' f evs Hp H.
    + inv H. split; [discriminate|lia].
    + cbn [forallb] in Hr. apply andb_true_iff in Hr as [Hr1 Hr2]. cbn [peg_ev seq_ev] in H.
      destruct (ev n x p) as [[[|p1 f1] evs1]|] eqn:E; try discriminate.
      destruct (seq_ev (ev n) es p1) as [[[|p2 f2] evs2]|] eqn:E2; try discriminate. inv H.
      pose proof (fs_inv x Hr1) as Hinv1. pose proof (fs_inv (ESeq es) Hr2) as Hinv2.
      rewrite fs_seq_cons. destruct (fst (fs T x)) eqn:Ecx; apply (then_fs (nb := S n) (b := ESeq es) (IH x Hr1) (IHes Hr2) Hp E E2); cbn [fst snd].
      * intros _. left. exact Ecx.
      * auto.
      * congruence.
      * intros Hc. right. exact Hc.
      * intros c Hc. rewrite union_mem, Hc by auto. apply orb_true_r.
      * intros _ c Hc. rewrite union_mem, Hc by auto. reflexivity.
  - (* EAlt: the alternative that succeeded is covered by the union, and must consume if all do *)
    intros p p' f evs Hp H. cbn [peg_ev] in H. apply alt_ev_succ in H as (x & evs1 & Hx & E).
    rewrite forallb_forall in Hr. destruct (IH x (Hr x Hx) p p' f evs1 Hp E) as [A B].
    destruct (fs_alt T es) as (_ & F1 & F2); [apply Forall_forall; intros y Hy; apply fs_inv; auto|].
    split.
    + rewrite F1. intros Hall. rewrite forallb_forall in Hall. exact (A (Hall x Hx)).
    + intros L. destruct (B L) as (c & Hc1 & Hc2). exists c. split; [exact Hc1|].
      rewrite F2. apply existsb_exists. exists x. split; [exact Hx|exact Hc2].
  - (* EAnd *) apply no_consume_fs; [|reflexivity]. intros p p' f evs H. cbn [peg_ev] in H.
    destruct (ev n e p) as [[[|p1 f1] evs1]|]; inv H. reflexivity.
  - (* ENot *) apply no_consume_fs; [|reflexivity]. intros p p' f evs H. cbn [peg_ev] in H.
    destruct (ev n e p) as [[[|p1 f1] evs1]|]; inv H. reflexivity.
  - (* EQuery *)
    intros p p' f evs Hp H. cbn [peg_ev] in H. cbn [fs fst snd].
    destruct (ev n e p) as [[[|p1 f1] evs1]|] eqn:E; inv H.
    + split; [discriminate|lia].
    + destruct (IH e Hr p p' f evs Hp E) as [A B]. split; [discriminate|exact B].
  - (* EStar *)
    intros p p' f evs Hp H. cbn [peg_ev] in H. cbn [fs fst snd].
    destruct (ev n e p) as [[[|p1 f1] evs1]|] eqn:E; try discriminate.
    + inv H. split; [discriminate|lia].
    + destruct (ev n (EStar e) p1) as [[[|p2 f2] evs2]|] eqn:E2; try discriminate. inv H.
      apply (then_fs (cs := (false, snd (fs T e))) (IH e Hr) (IH (EStar e) Hr) Hp E E2); cbn [fs fst snd]; auto.
  - (* EPlus *)
    intros p p' f evs Hp H. cbn [peg_ev] in H. cbn [fs].
    destruct (ev n e p) as [[[|p1 f1] evs1]|] eqn:E; try discriminate.
    destruct (ev n (EStar e) p1) as [[[|p2 f2] evs2]|] eqn:E2; try discriminate. inv H.
    apply (then_fs (IH e Hr) (IH (EStar e) Hr) Hp E E2); cbn [fs fst snd]; auto.
  - (* EPush *)
    intros p p' f evs Hp H. cbn [peg_ev] in H. cbn [fs].
    destruct (ev n e p) as [[[|p1 f1] evs1]|] eqn:E; inv H. exact (IH e Hr p p' f1 evs1 Hp E).
  - discriminate.
Qed.

End Sound.
End FS.
