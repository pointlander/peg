(** With -inline: a rule countRules arrives at exactly once is compiled in place.  The depth-first walk of countRules
    (Model/Analyses.v count_f) meets such a rule only on its first arrival - a second arrival would make the count two -
    and walks its body there and then, with fuel to spare; so the emitter, which walks the same bodies in the same
    nesting, has fuel for every body it compiles in place.  Hence the side condition [deep_table_b] (Model/SEmit.v)
    of the code-level theorems holds with -inline as well. *)
From PegV Require Import Base.Tac Base.ListX Spec.Syntax Model.Analyses Model.Emit Model.SEmit Proofs.DiagProofs Proofs.EmitUse Proofs.CountReach Proofs.SEmitFile.
From Coq Require Import Bool.
Import ListNotations.

Lemma closed_names_b_ok g : closed_names_b g = true -> closed_names g.
Proof.
  intros H r b Hb r' Hr'. unfold closed_names_b in H. rewrite forallb_forall in H.
  specialize (H _ (nth_error_In _ _ Hb)). cbn in H. rewrite forallb_forall in H. specialize (H r' Hr').
  destruct (nth_error g r') as [[b'|k|]|]; try discriminate; eexists; (split; [reflexivity|discriminate]).
Qed.

Definition cget (C : list nat) (r : nat) : nat := nth r C 0.

Lemma bump_length C r : length (bump C r) = length C.
Proof. exact (upd_at_length S r C 0). Qed.
Lemma cget_bump C r j : cget (bump C r) j = if ((j =? r) && (j <? length C))%bool then S (cget C j) else cget C j.
Proof. exact (upd_at_nth S r C 0 j 0). Qed.
Lemma cget_bump_le C r j : cget C j <= cget (bump C r) j.
Proof. rewrite cget_bump. destruct (_ && _)%bool; lia. Qed.
Lemma cget_bump_same C r : r < length C -> cget (bump C r) r = S (cget C r).
Proof. intros Hr. rewrite cget_bump, Nat.eqb_refl. apply Nat.ltb_lt in Hr. rewrite Hr. reflexivity. Qed.
Lemma cget_zeros {A} (l : list A) r : cget (map (fun _ => 0) l) r = 0.
Proof. exact (nth_map_const 0 l r). Qed.

Section DeepFacts.
Variable g : grammar.

Lemma deep_weaken inlo inl callable inlo' inl' callable' :
  (forall r, inlo r = inlo' r) -> (forall r, inl r = inl' r) -> (forall r, callable r = true -> callable' r = true) ->
  forall nf m e, nf <= m -> deep g inlo inl callable nf e = true -> deep g inlo' inl' callable' m e = true.
Proof.
  intros H1 H2 H3. induction nf as [|nf IH]; intros m e Hle H; [discriminate|]. destruct m as [|m]; [lia|]. apply le_S_n in Hle.
  assert (Hl : forall es, forallb (deep g inlo inl callable nf) es = true -> forallb (deep g inlo' inl' callable' m) es = true).
  { intros es He. apply forallb_forall. intros x Hx. apply (IH m x Hle). exact (proj1 (forallb_forall _ _) He x Hx). }
  destruct e; cbn [SEmit.deep] in *; auto; try exact (IH m _ Hle H).
  - rewrite <- H1, <- H2. destruct (nth_error g r) as [[b|k|]|]; auto; apply andb_true_iff in H as [Hq Hb]; rewrite Hq; cbn [andb].
    + destruct (inlo r); [exact (IH m _ Hle Hb)|exact (H3 r Hb)].
    + destruct (inlo r); [reflexivity|exact (H3 r Hb)].
  - destruct es; [discriminate|]. apply Hl. exact H.
  - apply andb_true_iff in H as [Hc Hd]. apply andb_true_iff. split; [|exact (IH m _ Hle Hd)].
    apply forallb_forall. intros x Hx. apply (IH m (snd x) Hle). exact (proj1 (forallb_forall _ _) Hc x Hx).
Qed.

Lemma deep_mono inlo inl callable : forall nf m e, nf <= m -> deep g inlo inl callable nf e = true -> deep g inlo inl callable m e = true.
Proof. apply deep_weaken; auto. Qed.
End DeepFacts.

Section Walk.
Variable g : grammar.
Variable inline : bool.
Hypothesis Hclosed : closed_names g.
Hypothesis Halt : grammar_alt2 g.
Notation count_f := (count_f g).
Notation rget := CountReach.rget.
Notation unv := (CountReach.unv g).

(** "compiled in place", read off a count table: the emitter's test, and the machine's (never the first rule) *)
Definition oncef (Cf : list nat) (r : nat) : bool := inline && (cget Cf r =? 1).
Definition itf (Cf : list nat) (r : nat) : bool := match r with O => false | S _ => oncef Cf r end.
Notation deepf Rf Cf := (deep g (itf Cf) (oncef Cf) (rget Rf)).

Definition defined (ns : list nat) : Prop := forall r, In r ns -> exists rb, nth_error g r = Some rb /\ rb <> RNil.

(** [deep] is asked of the tables countRules ends with, and a traversal does not know them yet: what it finds is
    therefore said of all later tables [Rf], [Cf] that mark what it marked and count no less than it counted *)
Definition PostC (n : nat) (e_ok : list bool -> list nat -> Prop) (R : list bool) (C : list nat) (R' : list bool) (C' : list nat) : Prop :=
  length C' = length g /\ (forall r, cget C r <= cget C' r) /\ (forall r, rget R' r = true -> 1 <= cget C' r) /\
  (forall Rf Cf, (forall r, rget R' r = true -> rget Rf r = true) -> (forall r, cget C' r <= cget Cf r) -> e_ok Rf Cf) /\
  (forall r, rget R' r = true -> rget R r = false -> forall b, nth_error g r = Some (RBody b) ->
     forall Rf Cf, (forall r, rget R' r = true -> rget Rf r = true) -> (forall r, cget C' r <= cget Cf r) -> deepf Rf Cf n b = true).

Definition Pre (R : list bool) (C : list nat) : Prop :=
  length R = length g /\ length C = length g /\ rget R 0 = true /\ (forall r, rget R r = true -> 1 <= cget C r).

Lemma PostC_refl n (Q : list bool -> list nat -> Prop) R C : Pre R C -> (forall Rf Cf, Q Rf Cf) -> PostC n Q R C R C.
Proof.
  intros (LR & LC & H0 & Hinv) HQ. split; [exact LC|]. split; [intros r; apply Nat.le_refl|]. split; [exact Hinv|].
  split; [intros Rf Cf _ _; apply HQ|]. intros r H1 H2. congruence.
Qed.

(** one traversal after another; the tables only grow, so what the first found stays true *)
Lemma PostC_trans n (P1 P2 Q : list bool -> list nat -> Prop) R C R1 C1 R2 C2 :
  PostC n P1 R C R1 C1 -> (forall r, rget R1 r = true -> rget R2 r = true) -> PostC n P2 R1 C1 R2 C2 ->
  (forall Rf Cf, P1 Rf Cf -> P2 Rf Cf -> Q Rf Cf) -> PostC n Q R C R2 C2.
Proof.
  intros (LC1 & M1 & I1 & D1 & N1) MR2 (LC2 & M2 & I2 & D2 & N2) HQ.
  assert (HC1 : forall Cf, (forall r, cget C2 r <= cget Cf r) -> forall r, cget C1 r <= cget Cf r).
  { intros Cf HC r. exact (Nat.le_trans _ _ _ (M2 r) (HC r)). }
  split; [exact LC2|]. split; [intros r; exact (Nat.le_trans _ _ _ (M1 r) (M2 r))|]. split; [exact I2|]. split.
  - intros Rf Cf HR HC. apply HQ; [apply D1; [intros r Hr; apply HR, MR2, Hr|apply HC1, HC]|apply D2; assumption].
  - intros r H2 H0 b Hb Rf Cf HR HC. destruct (rget R1 r) eqn:E1.
    + apply (N1 r E1 H0 b Hb); [intros r0 Hr0; apply HR, MR2, Hr0|apply HC1, HC].
    + exact (N2 r H2 E1 b Hb Rf Cf HR HC).
Qed.

Lemma PostC_S n (P : list bool -> list nat -> Prop) (Q : list bool -> list nat -> Prop) R C R' C' :
  PostC n P R C R' C' -> (forall Rf Cf, P Rf Cf -> Q Rf Cf) -> PostC (S n) Q R C R' C'.
Proof.
  intros (L & M & I & D & N) HPQ. split; [exact L|]. split; [exact M|]. split; [exact I|]. split.
  - intros Rf Cf HR HC. apply HPQ. apply D; assumption.
  - intros r H1 H0 b Hb Rf Cf HR HC. apply (deep_mono g _ _ _ n); [apply Nat.le_succ_diag_r|]. exact (N r H1 H0 b Hb Rf Cf HR HC).
Qed.

Lemma Pre_step n P ns R C R1 C1 : Pre R C -> Post g ns R R1 -> PostC n P R C R1 C1 -> Pre R1 C1.
Proof.
  intros (LR & LC & H0 & Hinv) (LR1 & MR1 & _) (LC1 & _ & I1 & _).
  split; [congruence|]. split; [exact LC1|]. split; [apply MR1; exact H0|exact I1].
Qed.

Lemma Pre_mark R C r : Pre R C -> r < length R -> Pre (setb R r) (bump C r).
Proof.
  intros (LR & LC & H0 & Hinv) Hr. split; [rewrite setb_length; exact LR|]. split; [rewrite bump_length; exact LC|].
  split; [apply rget_setb_mono, H0|]. intros r1 H1. destruct (Nat.eq_dec r1 r) as [->|N1].
  - rewrite cget_bump_same by congruence. apply le_n_S, Nat.le_0_l.
  - rewrite rget_setb_other in H1 by exact N1. exact (Nat.le_trans _ _ _ (Hinv r1 H1) (cget_bump_le C r r1)).
Qed.

(** a first arrival at r, which is not the first rule: r is marked and counted, then whatever happens from there.
    Later tables that compile r in place have it counted once, so P, what the walk from there found, is about its body. *)
Lemma PostC_mark n (P : list bool -> list nat -> Prop) R C R' C' r rb :
  r < length R -> r <> 0 -> nth_error g r = Some rb -> rb <> RNil ->
  (forall r1, rget (setb R r) r1 = true -> rget R' r1 = true) -> PostC n P (setb R r) (bump C r) R' C' ->
  (forall b, rb = RBody b -> forall Rf Cf, P Rf Cf -> deepf Rf Cf n b = true) ->
  PostC (S n) (fun Rf Cf => deepf Rf Cf (S n) (EName r) = true) R C R' C'.
Proof.
  intros Hr Hr0 Erb Nrb MR' (LC' & M' & I' & D' & N') Hb.
  assert (Hmr : rget R' r = true) by (apply MR', rget_setb_same, Hr).
  assert (Heq : forall Cf, Bool.eqb (oncef Cf r) (itf Cf r) = true) by (intros Cf; destruct r; [congruence|apply eqb_reflx]).
  split; [exact LC'|]. split; [intros r1; exact (Nat.le_trans _ _ _ (cget_bump_le C r r1) (M' r1))|]. split; [exact I'|]. split.
  - intros Rf Cf HR HC. cbn [SEmit.deep]. rewrite Erb. destruct rb as [b|k|]; [| |congruence]; rewrite Heq; cbn [andb].
    + destruct (itf Cf r); [apply (Hb b eq_refl), D'; assumption|apply HR; exact Hmr].
    + destruct (itf Cf r); [reflexivity|apply HR; exact Hmr].
  - intros r1 H1 H2 b1 Hb1 Rf Cf HR HC. apply (deep_mono g _ _ _ n); [apply Nat.le_succ_diag_r|].
    destruct (Nat.eq_dec r1 r) as [->|N1].
    + rewrite Erb in Hb1. inv Hb1. apply (Hb b1 eq_refl), D'; assumption.
    + apply (N' r1 H1); [rewrite rget_setb_other by exact N1; exact H2|exact Hb1|exact HR|exact HC].
Qed.

(** a later arrival at r: the count becomes two at least, so in later tables r has a function and is called *)
Lemma PostC_again n R C r rb : Pre R C -> rget R r = true -> nth_error g r = Some rb -> rb <> RNil ->
  PostC (S n) (fun Rf Cf => deepf Rf Cf (S n) (EName r) = true) R C R (bump C r).
Proof.
  intros (LR & LC & H0 & Hinv) Hm Erb Nrb.
  assert (Hlt : r < length C) by (rewrite LC; apply nth_error_Some; congruence).
  split; [rewrite bump_length; exact LC|]. split; [intros r0; apply cget_bump_le|]. split.
  { intros r0 Hr0. exact (Nat.le_trans _ _ _ (Hinv r0 Hr0) (cget_bump_le C r r0)). }
  split; [|intros r0 H1 H2; congruence].
  intros Rf Cf HR HC. cbn [SEmit.deep]. rewrite Erb.
  assert (Hon : oncef Cf r = false).
  { unfold oncef. destruct inline; [|reflexivity]. apply Nat.eqb_neq. specialize (HC r). rewrite (cget_bump_same C r Hlt) in HC.
    specialize (Hinv r Hm). lia. }
  assert (Hit : itf Cf r = false) by (destruct r; [reflexivity|exact Hon]).
  rewrite Hon, Hit. cbn [Bool.eqb andb]. destruct rb; [apply HR; exact Hm|apply HR; exact Hm|congruence].
Qed.

(** what the induction knows of a traversal [f] of expressions of size [sz] in all that name [ns]: from tables as
    [Pre] wants them, with fuel for [sz] and everything unvisited, it marks as [Post] says and counts as [PostC] says *)
Definition walk n (f : list bool * list nat -> list bool * list nat) (sz : nat) (ns : list nat) (P : list bool -> list nat -> Prop) : Prop :=
  forall R C, Pre R C -> sz + unv R <= n ->
    Post g ns R (fst (f (R, C))) /\ PostC n P R C (fst (f (R, C))) (snd (f (R, C))).

Lemma walk_then n f1 f2 s1 s2 ns1 ns2 (P1 P2 Q : list bool -> list nat -> Prop) :
  walk n f1 s1 ns1 P1 -> walk n f2 s2 ns2 P2 -> (forall Rf Cf, P1 Rf Cf -> P2 Rf Cf -> Q Rf Cf) ->
  walk n (fun s => f2 (f1 s)) (s1 + s2) (ns1 ++ ns2) Q.
Proof.
  intros W1 W2 HQ R C HP F. destruct (W1 R C HP) as [Q1 P1']; [lia|].
  destruct (f1 (R, C)) as [R1 C1]. cbn [fst snd] in *.
  pose proof (Pre_step _ _ _ _ _ _ _ HP Q1 P1') as HP1.
  destruct (W2 R1 C1 HP1) as [Q2 P2']; [pose proof (unv_post g _ _ _ Q1); lia|].
  split; [exact (Post_trans g _ _ _ _ _ Q1 Q2)|].
  exact (PostC_trans n _ _ _ R C R1 C1 _ _ P1' (proj1 (proj2 Q2)) P2' HQ).
Qed.

(** the traversal of a list of sub-expressions, each found in its element by p *)
Lemma fold_walk {X} (p : X -> expr) n
  (IH : forall e, alt2 e = true -> defined (names_of e) ->
        walk n (count_f n e) (esize e) (names_of e) (fun Rf Cf => deepf Rf Cf n e = true)) :
  forall xs, forallb (fun x => alt2 (p x)) xs = true -> defined (flat_map (fun x => names_of (p x)) xs) ->
    walk n (fun s => fold_left (fun s x => count_f n (p x) s) xs s) (fold_right (fun x a => esize (p x) + a) 0 xs)
         (flat_map (fun x => names_of (p x)) xs) (fun Rf Cf => forallb (fun x => deepf Rf Cf n (p x)) xs = true).
Proof.
  induction xs as [|x xs IHxs]; intros Ha Hd; cbn [fold_left flat_map fold_right forallb] in *.
  - intros R C HP _. split; [apply Post_refl|apply PostC_refl; [exact HP|reflexivity]].
  - apply andb_true_iff in Ha as [Ha1 Ha2].
    apply (walk_then n _ _ _ _ _ _ _ _ _ (IH (p x) Ha1 (fun r Hr => Hd r (in_or_app _ _ _ (or_introl Hr))))
             (IHxs Ha2 (fun r Hr => Hd r (in_or_app _ _ _ (or_intror Hr))))).
    intros Rf Cf H1 H2. rewrite H1. exact H2.
Qed.

Theorem count_f_postc n : forall e R C, Pre R C -> esize e + unv R <= n -> alt2 e = true -> defined (names_of e) ->
  PostC n (fun Rf Cf => deepf Rf Cf n e = true) R C (fst (count_f n e (R, C))) (snd (count_f n e (R, C))).
Proof.
  induction n as [|n IH]; intros e R C HP F Ha Hd; [pose proof (esize_pos e); lia|].
  assert (W : forall e, alt2 e = true -> defined (names_of e) ->
            walk n (count_f n e) (esize e) (names_of e) (fun Rf Cf => deepf Rf Cf n e = true)).
  { intros e0 Ha0 Hd0 R0 C0 HP0 F0. split; [exact (count_f_post g n e0 R0 C0 (proj1 HP0) F0)|exact (IH e0 R0 C0 HP0 F0 Ha0 Hd0)]. }
  destruct e; cbn [Analyses.count_f names_of esize alt2 fst snd Nat.add] in *; apply le_S_n in F;
    try (apply PostC_refl; [exact HP|reflexivity]);
    try (apply (PostC_S n _ _ _ _ _ _ (IH e R C HP F Ha Hd)); intros Rf Cf H; exact H).
  - (* a name *)
    destruct (Hd r (or_introl eq_refl)) as (rb & Erb & Nrb).
    assert (Hlt : r < length R) by (rewrite (proj1 HP); apply nth_error_Some; congruence).
    destruct (nth r R true) eqn:Ev; cbn [fst snd]; [exact (PostC_again n R C r rb HP (marked R r Ev Hlt) Erb Nrb)|].
    destruct (unmarked R r Ev) as [_ Hf].
    assert (Hr0 : r <> 0) by (destruct HP as (_ & _ & H0 & _); intros ->; congruence).
    pose proof (Pre_mark R C r HP Hlt) as HP2.
    pose proof (unv_setb g R r Hlt ltac:(rewrite <- (proj1 HP); exact Hlt) Hf) as U.
    rewrite Erb. destruct rb as [b|k|]; [| |congruence].
    + rewrite (rs_body g r b Erb) in U.
      destruct (W b (Halt _ _ Erb) (Hclosed _ _ Erb) (setb R r) (bump C r) HP2) as [(_ & MR' & _) P]; [lia|].
      destruct (count_f n b (setb R r, bump C r)) as [R' C']. cbn [fst snd] in *.
      apply (PostC_mark n _ R C R' C' r _ Hlt Hr0 Erb Nrb MR' P). intros b0 E Rf Cf H. inv E. exact H.
    + apply (PostC_mark n (fun _ _ => True) R C _ _ r _ Hlt Hr0 Erb Nrb (fun r1 H => H) (PostC_refl n _ _ _ HP2 (fun _ _ => I))).
      intros b0 E. discriminate.
  - (* sequence *)
    apply (PostC_S n _ _ _ _ _ _ (proj2 (fold_walk (fun x => x) n W es Ha Hd R C HP F))). intros Rf Cf H. exact H.
  - (* choice *)
    apply andb_true_iff in Ha as [Hl Ha].
    apply (PostC_S n _ _ _ _ _ _ (proj2 (fold_walk (fun x => x) n W es Ha Hd R C HP F))).
    intros Rf Cf H. cbn [SEmit.deep]. destruct es; [discriminate|exact H].
  - (* switch: the clauses, then the default *)
    apply andb_true_iff in Ha as [Hc Hdd].
    apply (PostC_S n (fun Rf Cf => forallb (fun kc : list rune * expr => deepf Rf Cf n (snd kc)) cs && deepf Rf Cf n e = true));
      [|intros Rf Cf H; exact H].
    apply (walk_then n _ _ _ _ _ _ _ _ _ (fold_walk snd n W cs Hc (fun r Hr => Hd r (in_or_app _ _ _ (or_introl Hr))))
             (W e Hdd (fun r Hr => Hd r (in_or_app _ _ _ (or_intror Hr))))); [|exact HP|exact F].
    intros Rf Cf H1 H2. rewrite H1. exact H2.
Qed.

End Walk.


(** in the tables countRules ends with, the emitter has fuel for the body of every rule that is marked.  [Pre] wants
    the first rule marked, so the first step of the walk, into the first rule, is taken by hand. *)
Lemma count_rules_deep g inline : grammar_alt2 g -> closed_names g ->
  forall r b, CountReach.rget (fst (count_rules g)) r = true -> nth_error g r = Some (RBody b) ->
  deep g (itf inline (snd (count_rules g))) (oncef inline (snd (count_rules g))) (CountReach.rget (fst (count_rules g))) (fuel g) b = true.
Proof.
  intros Ha Hc r b Hm Eg.
  assert (Hlen0 : 0 < length g) by (apply Nat.le_lt_trans with r; [apply Nat.le_0_l|apply nth_error_Some; congruence]).
  set (R1 := setb (map (fun _ => false) g) 0). set (C1 := bump (map (fun _ => 0) g) 0).
  set (F' := length g + gsize g * S (length g)).
  assert (E : count_rules g = match nth_error g 0 with Some (RBody b0) => count_f g F' b0 (R1, C1) | _ => (R1, C1) end).
  { unfold count_rules, F', R1, C1. destruct g; [inversion Hlen0|reflexivity]. }
  assert (HR1 : forall r1, CountReach.rget R1 r1 = true -> r1 = 0).
  { intros r1 H1. destruct (Nat.eq_dec r1 0) as [E0|N]; [exact E0|]. unfold R1 in H1. rewrite rget_setb_other, rget_all_false in H1 by exact N. discriminate. }
  rewrite E in Hm |- *. destruct (nth_error g 0) as [[b0|k0|]|] eqn:Eg0; cbn [fst snd] in Hm |- *.
  2-4: rewrite (HR1 r Hm) in Eg; congruence.
  assert (HP : Pre g R1 C1).
  { split; [unfold R1; rewrite setb_length; apply map_length|]. split; [unfold C1; rewrite bump_length; apply map_length|].
    split; [apply rget_setb_same; rewrite map_length; exact Hlen0|]. intros r1 H1. rewrite (HR1 r1 H1). unfold C1.
    rewrite cget_bump_same by (rewrite map_length; exact Hlen0). apply le_n_S, Nat.le_0_l. }
  assert (Hfuel : esize b0 + CountReach.unv g R1 <= F').
  { pose proof (unv_setb g (map (fun _ => false) g) 0 ltac:(rewrite map_length; exact Hlen0) Hlen0 (rget_all_false g 0)) as U.
    rewrite unv_all_false, (rs_body g 0 b0 Eg0) in U. fold R1 in U. unfold F'. nia. }
  pose proof (count_f_postc g inline Hc Ha F' b0 R1 C1 HP Hfuel (Ha _ _ Eg0) (Hc _ _ Eg0)) as P.
  destruct (count_f g F' b0 (R1, C1)) as [R' C']. cbn [fst snd] in *. destruct P as (_ & _ & _ & D1 & D2).
  apply (deep_mono g _ _ _ F'); [unfold fuel, F'; lia|].
  destruct (Nat.eq_dec r 0) as [->|N0].
  - rewrite Eg0 in Eg. inv Eg. apply D1; auto.
  - apply (D2 r Hm); auto. destruct (CountReach.rget R1 r) eqn:E1; [exfalso; exact (N0 (HR1 r E1))|reflexivity].
Qed.

Theorem deep_table_all g inline : grammar_alt2 g -> closed_names g -> deep_table_b g inline = true.
Proof.
  intros Ha Hc. unfold deep_table_b. cbv zeta. apply forallb_forall. intros r Hr.
  destruct (reached (count_rules g) r) eqn:Ere; [|reflexivity].
  destruct (nth r (inline_table inline g) false) eqn:Eit; [reflexivity|]. cbn [negb andb implb].
  unfold rdeep. destruct (nth_error g r) as [[b|k|]|] eqn:Eg; try reflexivity.
  apply (deep_weaken g (itf inline (snd (count_rules g))) (oncef inline (snd (count_rules g))) (CountReach.rget (fst (count_rules g)))
           _ _ _) with (nf := fuel g); [|reflexivity|intros r1 H1; exact H1|apply le_n|exact (count_rules_deep g inline Ha Hc r b Ere Eg)].
  intros [|r1]; [symmetry; apply inline_table_0|symmetry; apply inline_table_S].
Qed.
Print Assumptions deep_table_all.
