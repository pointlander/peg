(** The reference semantics read construct by construct, with fuel and events out of sight:
    [yields e p r] says that [e] started at [p] has the result [r].  Each construct gets one
    equivalence that serves as inversion and as introduction (fuel monotonicity is used up here),
    and constructs that evaluate alike share a shape, so that an argument by cases on the
    expression needs one step per shape.  ([yields e p (Succ p' f)] and [yields e p Fail] are the
    [ok] and [ko] of Proofs/PegRel.v, which has the introduction rules one result at a time.)
    Three inductions go by [peg_ev] itself, construct by construct: Forest.ev_ok is about the events,
    which [yields] hides; FirstSound.first_sound and Total.consumes need the fuel to induct on (the
    order of evaluation that Total.head_rank_ind offers rests on [consumes]), and what they say differs
    between the constructs of one shape. *)
From PegV Require Import Base.Tac Spec.Syntax Spec.Peg Proofs.PegFacts.

Definition leaf (e : expr) : bool :=
  match e with EDot | EChar _ | ERange _ _ | EPred _ | EState _ | EAct _ | ENil => true | _ => false end.

Lemma leaf_ev g g' ptx buf penv n e p : leaf e = true -> peg_ev g ptx buf penv n e p = peg_ev g' ptx buf penv n e p.
Proof. destruct n, e; try discriminate; reflexivity. Qed.

Lemma alt_ev_succ (f : expr -> nat -> option out) es p p' fo : forall evs,
  alt_ev f es p = Some (Succ p' fo, evs) -> exists x evs1, In x es /\ f x p = Some (Succ p' fo, evs1).
Proof.
  induction es as [|x es IH]; intros evs H; cbn [alt_ev] in H; [discriminate|].
  destruct (f x p) as [[[|p1 f1] evs1]|] eqn:E; try discriminate.
  - destruct es as [|x2 es]; [discriminate|].
    destruct (alt_ev f (x2 :: es) p) as [[r2 evs2]|] eqn:E2; [|discriminate]. inv H.
    destruct (IH _ eq_refl) as (y & ev1 & Hy & Ey). exists y, ev1. split; [right; exact Hy|exact Ey].
  - inv H. exists x, evs. split; [left; reflexivity|exact E].
Qed.

Definition join (f1 : list dt) (r : res) : res :=
  match r with Fail => Fail | Succ p f => Succ p (f1 ++ f) end.

(** lookahead, option and capture run their operand and map its result *)
Inductive unary (ptx : nat) : (expr -> expr) -> (nat -> res -> res) -> Prop :=
| u_and : unary ptx EAnd (fun p r => match r with Fail => Fail | Succ _ _ => Succ p [] end)
| u_not : unary ptx ENot (fun p r => match r with Fail => Succ p [] | Succ _ _ => Fail end)
| u_query : unary ptx EQuery (fun p r => match r with Fail => Succ p [] | Succ _ _ => r end)
| u_push : unary ptx EPush (fun p r => match r with Fail => Fail | Succ p' f => Succ p' [Node ptx p p' f] end).

(** a sequence runs its head and then the rest; a repetition its operand and then the star.  The last
    index is the result when the first part fails. *)
Inductive seqlike : expr -> expr -> expr -> (nat -> res) -> Prop :=
| sl_seq x es : seqlike (ESeq (x :: es)) x (ESeq es) (fun _ => Fail)
| sl_star e : seqlike (EStar e) e (EStar e) (fun p => Succ p [])
| sl_plus e : seqlike (EPlus e) e (EStar e) (fun _ => Fail).

Section Inv.
Variable g : grammar.
Variable ptx : nat.
Variable buf : list rune.
Variable penv : nat -> nat -> bool.

Notation ev := (peg_ev g ptx buf penv).

Definition yields (e : expr) (p : nat) (r : res) : Prop := exists n evs, ev n e p = Some (r, evs).

Lemma yields_det e p r r' : yields e p r -> yields e p r' -> r = r'.
Proof. intros (n & evs & H) (n' & evs' & H'). pose proof (peg_ev_det _ _ _ _ _ _ _ _ _ _ H H') as E. inv E. reflexivity. Qed.

Lemma unary_yields K h : unary ptx K h -> forall e p r, yields (K e) p r <-> exists r1, yields e p r1 /\ r = h p r1.
Proof.
  intros U e p r. split.
  - intros (n & evs & H). destruct n as [|n]; [discriminate|].
    destruct U; cbn [peg_ev] in H; destruct (ev n e p) as [[r1 evs1]|] eqn:E; try discriminate;
      (exists r1; split; [exists n, evs1; exact E|destruct r1; inv H; reflexivity]).
  - intros (r1 & (n & evs & H) & ->). exists (S n). destruct U; cbn [peg_ev]; rewrite H; destruct r1; eexists; reflexivity.
Qed.

(** [E] runs [A]; if [A] fails the result is [r0]; otherwise [B] runs where [A] stopped, and a
    success of [B] takes the forest of [A] in front of its own *)
Definition then_shape (E A B : expr) (r0 : nat -> res) : Prop :=
  forall p r, yields E p r <->
    yields A p Fail /\ r = r0 p \/
    exists p1 f1 r2, yields A p (Succ p1 f1) /\ yields B p1 r2 /\ r = join f1 r2.

(** the match that [seq_ev] and the repetitions in [peg_ev] have in common *)
Definition then_ev (a : option out) (r0 : res) (b : nat -> option out) : option out :=
  match a with
  | None => None
  | Some (Fail, evs) => Some (r0, evs)
  | Some (Succ p1 f1, evs1) =>
      match b p1 with
      | None => None
      | Some (Fail, evs2) => Some (Fail, evs1 ++ evs2)
      | Some (Succ p2 f2, evs2) => Some (Succ p2 (f1 ++ f2), evs1 ++ evs2)
      end
  end.

(** [B] runs with the fuel of [A] (repetitions) or with one more (the rest of a sequence): [d] *)
Lemma then_shape_intro E A B r0 d :
  (forall n p, ev (S n) E p = then_ev (ev n A p) (r0 p) (ev (d + n) B)) -> then_shape E A B r0.
Proof.
  intros Heq p r. split.
  - intros (n & evs & H). destruct n as [|n]; [discriminate|]. rewrite Heq in H. unfold then_ev in H.
    destruct (ev n A p) as [[[|p1 f1] evs1]|] eqn:E1; try discriminate.
    + inv H. left. split; [exists n, evs; exact E1|reflexivity].
    + destruct (ev (d + n) B p1) as [[r2 evs2]|] eqn:E2; [|discriminate].
      right. exists p1, f1, r2. split; [exists n, evs1; exact E1|]. split; [exists (d + n), evs2; exact E2|].
      destruct r2; inv H; reflexivity.
  - intros [[(n & evs & H) ->]|(p1 & f1 & r2 & (n1 & evs1 & H1) & (n2 & evs2 & H2) & ->)].
    + exists (S n), evs. rewrite Heq, H. reflexivity.
    + exists (S (Nat.max n1 n2)). rewrite Heq. unfold then_ev.
      rewrite (peg_ev_mono _ _ _ _ _ _ _ _ _ (Nat.le_max_l n1 n2) H1).
      rewrite (peg_ev_mono _ _ _ _ n2 (d + Nat.max n1 n2) _ _ _ ltac:(lia) H2).
      destruct r2; eexists; reflexivity.
Qed.

Lemma seq_nil_yields p r : yields (ESeq []) p r <-> r = Succ p [].
Proof.
  split; [intros (n & evs & H); destruct n; [discriminate|]; inv H; reflexivity|].
  intros ->. exists 1, []. reflexivity.
Qed.

Lemma seqlike_shape E A B r0 : seqlike E A B r0 -> then_shape E A B r0.
Proof. intros []; [apply (then_shape_intro _ _ _ _ 1)|apply (then_shape_intro _ _ _ _ 0)..]; reflexivity. Qed.

Lemma alt_nil_yields p r : yields (EAlt []) p r <-> r = Fail.
Proof.
  split; [intros (n & evs & H); destruct n; [discriminate|]; inv H; reflexivity|].
  intros ->. exists 1, []. reflexivity.
Qed.

Lemma alt_cons_yields x es p r : yields (EAlt (x :: es)) p r <->
  (exists p1 f1, r = Succ p1 f1 /\ yields x p r) \/ yields x p Fail /\ yields (EAlt es) p r.
Proof.
  split.
  - intros (n & evs & H). destruct n as [|n]; [discriminate|]. cbn [peg_ev alt_ev] in H.
    destruct (ev n x p) as [[[|p1 f1] evs1]|] eqn:E; try discriminate.
    + right. split; [exists n, evs1; exact E|]. destruct es as [|x2 es]; [inv H; apply alt_nil_yields; reflexivity|].
      destruct (alt_ev (ev n) (x2 :: es) p) as [[r2 evs2]|] eqn:E2; inv H. exists (S n), evs2. exact E2.
    + inv H. left. exists p1, f1. split; [reflexivity|exists n, evs; exact E].
  - intros [(p1 & f1 & -> & n & evs & H)|[(n1 & evs1 & H1) (n2 & evs2 & H2)]].
    + exists (S n), evs. cbn [peg_ev alt_ev]. rewrite H. reflexivity.
    + destruct n2 as [|n2]; [discriminate|]. cbn [peg_ev] in H2. exists (S (Nat.max n1 n2)). cbn [peg_ev alt_ev].
      rewrite (peg_ev_mono _ _ _ _ _ _ _ _ _ (Nat.le_max_l n1 n2) H1).
      destruct es as [|x2 es]; [inv H2; eexists; reflexivity|].
      rewrite (alt_ev_mono (ev n2) (ev (Nat.max n1 n2)) (fun e q y => peg_ev_mono _ _ _ _ _ _ e q y (Nat.le_max_r n1 n2)) _ _ _ H2).
      eexists; reflexivity.
Qed.

Lemma name_yields r p x : yields (EName r) p x <->
  match nth_error g r with
  | Some (RBody b) => exists r1, yields b p r1 /\ x = match r1 with Fail => Fail | Succ p' f => Succ p' [Node r p p' f] end
  | Some (RAct _) => x = Succ p [Node r p p []]
  | _ => False
  end.
Proof.
  split.
  - intros (n & evs & H). destruct n as [|n]; [discriminate|]. cbn [peg_ev] in H.
    destruct (nth_error g r) as [[b|k|]|]; try discriminate; [|inv H; reflexivity].
    destruct (ev n b p) as [[r1 evs1]|] eqn:E; [|discriminate].
    exists r1. split; [exists n, evs1; exact E|destruct r1; inv H; reflexivity].
  - destruct (nth_error g r) as [[b|k|]|] eqn:Eg; try contradiction.
    + intros (r1 & (n & evs & H) & ->). exists (S n). cbn [peg_ev]. rewrite Eg, H. destruct r1; eexists; reflexivity.
    + intros ->. exists 1. cbn [peg_ev]. rewrite Eg. eexists; reflexivity.
Qed.

Definition branch (cs : list (list rune * expr)) (d : expr) (p : nat) : expr :=
  match nth_error buf p with
  | Some c => match find_case cs c with Some e1 => e1 | None => d end
  | None => d
  end.

Lemma switch_yields cs d p r : yields (ESwitch cs d) p r <-> yields (branch cs d p) p r.
Proof.
  unfold branch. split; intros (n & evs & H); [destruct n as [|n]; [discriminate|]; exists n, evs|exists (S n), evs];
    cbn [peg_ev] in *; destruct (nth_error buf p) as [c|]; [destruct (find_case cs c)| | destruct (find_case cs c)|]; exact H.
Qed.

End Inv.
