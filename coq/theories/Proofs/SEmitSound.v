(** The emitted code implements the machine.  The file first shows that the statements of [semit] (Model/SEmit.v)
    are, once [forget] has dropped which statement is which, the skeleton of [emit] (Model/Emit.v): [forget_semit]
    for an expression, [forget_semit_all] for the file; they carry the labels and jumps of their skeleton
    ([forget_marks]), so the label ranges of Proofs/EmitWF.v hold of them ([semit_rng]).  Section Sound then proves
    that running [semit e] under the execution semantics of Model/Exec.v does what [run_f e] (Model/Machine.v) does
    - falls through with the machine's state on success, jumps to the failure label on failure, crashes when it
    crashes -, and that a call of a rule function returns what [rule_fn] returns ([sound_step], [program_sound]
    for a table of functions that meets [table_ok]).  The two halves close the gap between the structured
    interpreter the other theorems are about and the goto code whose skeleton is compared with the generated file. *)
From PegV Require Import Base.Tac Base.ListX Spec.Syntax Spec.Peg Model.Machine Model.Emit Model.SEmit Model.Exec Proofs.EmitWF.

Lemma forget_app a b : forget (a ++ b) = forget a ++ forget b.
Proof. apply flat_map_app. Qed.
Lemma forget_cons x c : forget (x :: c) = forget1 x ++ forget c.
Proof. reflexivity. Qed.

Lemma salt_emit_cons2 used se x y es ko ok l :
  salt_emit used se (x :: y :: es) ko ok l =
    (let '(c, l1, _) := se x l false false (S l) in let '(c', l2) := salt_emit used se (y :: es) ko ok l1 in
     (c ++ [SJmp ok] ++ slbl_if used l ++ [SRestore ok] ++ c', l2)).
Proof. reflexivity. Qed.

Definition forget_res (r : sres) : Emit.res := let '(c, l1, ll) := r in (forget c, l1, ll).

Section Forget.
Variable g : grammar.
Variable ptx : nat.
Variable ast : bool.
Variable inl asu used : nat -> bool.

Notation emit := (Emit.emit g ast inl asu used).
Notation semit := (SEmit.semit g ptx ast inl asu used).

Lemma forget_lbl_if n : forget (slbl_if used n) = lbl_if used n.
Proof. unfold slbl_if, lbl_if. destruct (used n); reflexivity. Qed.

Ltac fg :=
  cbn [forget_res];
  repeat (rewrite ?forget_app, ?forget_cons, ?forget_lbl_if; cbn [forget1 app];
          repeat match goal with |- context [flat_map forget1 ?b] => change (flat_map forget1 b) with (forget b) end);
  rewrite ?app_nil_r.

Section Lists.
Variable se : expr -> nat -> bool -> bool -> nat -> sres.
Variable ke : expr -> nat -> bool -> bool -> nat -> Emit.res.
Hypothesis H : forall x ko pd mk l, ke x ko pd mk l = forget_res (se x ko pd mk l).

Lemma forget_seq es : forall ko pd mk l ll, seq_emit ke es ko pd mk l ll = forget_res (sseq_emit se es ko pd mk l ll).
Proof.
  induction es as [|x es IH]; intros ko pd mk l ll; cbn [sseq_emit seq_emit]; [reflexivity|].
  rewrite H. destruct (se x ko pd mk l) as [[c l1] ll1]. cbn [forget_res].
  replace (match forget c with [] => ll | _ => ll1 end) with (match c with [] => ll | _ => ll1 end) by (destruct c as [|[] c]; reflexivity).
  rewrite IH. destruct (sseq_emit se es ko false false l1 _) as [[c' l2] ll2]. fg. reflexivity.
Qed.

Lemma forget_alt es : forall ko ok l,
  alt_emit used ke es ko ok l = (let '(c, l1) := salt_emit used se es ko ok l in (forget c, l1)).
Proof.
  induction es as [|x es IH]; intros ko ok l; [reflexivity|]. destruct es as [|y es].
  - cbn [salt_emit alt_emit]. rewrite H. destruct (se x ko false false l) as [[c l1] ll1]. reflexivity.
  - rewrite salt_emit_cons2.
    change (alt_emit used ke (x :: y :: es) ko ok l) with
      (let '(c, l1, _) := ke x l false false (S l) in let '(c', l2) := alt_emit used ke (y :: es) ko ok l1 in
       (c ++ [KJmp ok] ++ lbl_if used l ++ [KRestore ok] ++ c', l2)).
    rewrite H. destruct (se x l false false (S l)) as [[c l1] ll1]. cbn [forget_res].
    rewrite IH. destruct (salt_emit used se (y :: es) ko ok l1) as [c' l2]. fg. reflexivity.
Qed.

Lemma forget_cases cs : forall ko l,
  cases_emit ke cs ko l = (let '(cl, l1) := scases_emit se cs ko l in (map (fun kc : list rune * list scode => forget (snd kc)) cl, l1)).
Proof.
  induction cs as [|[keys b] cs IH]; intros ko l; cbn [scases_emit cases_emit]; [reflexivity|].
  rewrite H. destruct (se b ko true _ l) as [[c l1] ll]. cbn [forget_res].
  rewrite IH. destruct (scases_emit se cs ko l1) as [rest l2]. cbn [map snd]. rewrite forget_app. destruct ll; reflexivity.
Qed.

Lemma forget_ipush r ko pd mk l : ipush_emit g ke r ko pd mk l = forget_res (sipush_emit g ast se r ko pd mk l).
Proof.
  unfold sipush_emit, ipush_emit. destruct (nth_error g r) as [[b|k|]|]; try reflexivity.
  - rewrite H. destruct (se b ko pd mk (S l)) as [[c l1] ll]. fg. reflexivity.
  - destruct ast; reflexivity.
Qed.
End Lists.

Theorem forget_semit n : forall e ko pd mk l, emit n e ko pd mk l = forget_res (semit n e ko pd mk l).
Proof.
  induction n as [|n IH]; intros e ko pd mk l; [reflexivity|].
  destruct e as [|ch|lo hi|r|k|k|k| |es|es|e|e|e|e|e|e|cs d]; cbn [SEmit.semit Emit.emit]; try reflexivity.
  - destruct pd; reflexivity.
  - destruct (pd && negb mk)%bool; reflexivity.
  - destruct pd; reflexivity.
  - destruct (inl r); [|destruct (asu r); reflexivity].
    rewrite (forget_ipush _ _ IH). destruct (sipush_emit g ast (semit n) r ko pd mk l) as [[c l1] ll]. reflexivity.
  - apply forget_seq, IH.
  - rewrite (forget_alt _ _ IH). destruct (salt_emit used (semit n) es ko l (S l)) as [c l1]. fg. reflexivity.
  - rewrite IH. destruct (semit n e ko false false (S l)) as [[c l1] ll]. fg. reflexivity.
  - rewrite IH. destruct (semit n e l false false (S l)) as [[c l1] ll]. fg. reflexivity.
  - rewrite IH. destruct (semit n e l false false (S (S l))) as [[c l1] ll]. fg. reflexivity.
  - rewrite IH. destruct (semit n e (S l) false false (S (S l))) as [[c l1] ll]. fg. reflexivity.
  - rewrite IH. destruct (semit n e ko false false (S (S l))) as [[c1 l1] ll1]. cbn [forget_res].
    rewrite IH. destruct (semit n e (S l) false false l1) as [[c2 l2] ll2]. fg. reflexivity.
  - rewrite IH. destruct (semit n e ko pd mk (S l)) as [[c l1] ll]. destruct ast; fg; reflexivity.
  - rewrite (forget_cases _ _ IH). destruct (scases_emit (semit n) cs ko (S l)) as [cl l1].
    rewrite IH. destruct (semit n d ko false false l1) as [[cd l2] lld]. destruct lld; fg; reflexivity.
Qed.

End Forget.

Section ForgetFile.
Variable g : grammar.
Variable ptx : nat.
Variable ast : bool.

Lemma forget_srule inl asu used n r ko :
  rule_emit g ast inl asu used n r ko = (let '(c, l1) := srule_emit g ptx ast inl asu used n r ko in (forget c, l1)).
Proof.
  unfold srule_emit, rule_emit. rewrite (forget_ipush g ast _ _ (forget_semit g ptx ast inl asu used n)).
  destruct (sipush_emit g ast (SEmit.semit g ptx ast inl asu used n) r ko false false (S ko)) as [[c l1] ll]. cbn [forget_res].
  rewrite !forget_app. destruct ast, (used ko); reflexivity.
Qed.

Lemma forget_spass inline asu undef cr fl real used rs : forall r l,
  map (option_map forget) (spass g ptx ast inline asu undef cr fl real used rs r l) = pass g ast inline asu undef cr fl real used rs r l.
Proof.
  induction rs as [|rb rs IH]; intros r l; cbn [spass pass map]; [reflexivity|].
  destruct (match rb with RNil => if undef r then real else true | _ => false end); [cbn [map option_map]; rewrite IH; reflexivity|].
  destruct (negb (reached cr r)); [cbn [map option_map]; rewrite IH; reflexivity|].
  destruct (once inline cr r && negb (l =? 0))%bool; [cbn [map option_map]; rewrite IH; reflexivity|].
  rewrite forget_srule. destruct (srule_emit g ptx ast (once inline cr) asu used fl r l) as [c l1]. cbn [map option_map]. rewrite IH. reflexivity.
Qed.

Theorem forget_semit_all inline asu undef :
  map (option_map forget) (semit_all g ptx ast inline asu undef) = emit_all g ast inline asu undef.
Proof. unfold semit_all, emit_all. apply forget_spass. Qed.

End ForgetFile.

Fixpoint slbls1 (x : scode) : list nat :=
  match x with
  | SLbl n => [n]
  | SBlock b => flat_map slbls1 b
  | SSwitch cs d => flat_map (fun kc : list rune * list scode => flat_map slbls1 (snd kc)) cs ++ flat_map slbls1 d
  | _ => []
  end.
Definition slbls (c : list scode) : list nat := flat_map slbls1 c.
Fixpoint sjumps1 (x : scode) : list nat :=
  match x with
  | SJmp n | SCond _ n => [n]
  | SBlock b => flat_map sjumps1 b
  | SSwitch cs d => flat_map (fun kc : list rune * list scode => flat_map sjumps1 (snd kc)) cs ++ flat_map sjumps1 d
  | _ => []
  end.
Definition sjumps (c : list scode) : list nat := flat_map sjumps1 c.
Definition top1 (x : scode) : list nat := match x with SLbl n => [n] | _ => [] end.
Definition toplbls (c : list scode) : list nat := flat_map top1 c.

Lemma sjumps_app a b : sjumps (a ++ b) = sjumps a ++ sjumps b.
Proof. apply flat_map_app. Qed.
Lemma toplbls_app a b : toplbls (a ++ b) = toplbls a ++ toplbls b.
Proof. apply flat_map_app. Qed.
Lemma top_in_all c j : In j (toplbls c) -> In j (slbls c).
Proof.
  induction c as [|i c IH]; [auto|]. cbn [toplbls slbls flat_map]. rewrite !in_app_iff. intros [H|H]; [left|right; apply IH; exact H].
  destruct i; cbn in *; tauto.
Qed.

Lemma after_label_skip l a b : ~ In l (toplbls a) -> after_label l (a ++ b) = after_label l b.
Proof.
  induction a as [|i a IH]; intros H; [reflexivity|]. cbn [toplbls flat_map] in H. rewrite in_app_iff in H.
  cbn [app after_label]. destruct i; try (apply IH; tauto).
  cbn [top1] in H. destruct (Nat.eqb_spec n l) as [->|N]; [exfalso; apply H; left; left; reflexivity|apply IH; tauto].
Qed.
Lemma after_label_none l c : ~ In l (toplbls c) -> after_label l c = None.
Proof. intros H. rewrite <- (app_nil_r c). rewrite after_label_skip by exact H. reflexivity. Qed.
Lemma after_label_hit l k : after_label l (SLbl l :: k) = Some k.
Proof. cbn. rewrite Nat.eqb_refl. reflexivity. Qed.

Section SInd.
Variable P : scode -> Prop.
Hypothesis Hleaf : forall x, (match x with SBlock _ | SSwitch _ _ => False | _ => True end) -> P x.
Hypothesis Hblock : forall b, Forall P b -> P (SBlock b).
Hypothesis Hswitch : forall cs d, Forall (fun kc : list rune * list scode => Forall P (snd kc)) cs -> Forall P d -> P (SSwitch cs d).
Fixpoint scode_ind2 (x : scode) : P x :=
  match x with
  | SBlock b => Hblock b (Forall_all P scode_ind2 b)
  | SSwitch cs d => Hswitch cs d (Forall_all _ (fun kc => Forall_all P scode_ind2 (snd kc)) cs) (Forall_all P scode_ind2 d)
  | y => Hleaf y I
  end.
End SInd.

Definition marks_ok (x : scode) : Prop := lbls (forget1 x) = slbls1 x /\ jumps (forget1 x) = sjumps1 x.

Lemma forget_marks_list b : Forall marks_ok b -> lbls (forget b) = slbls b /\ jumps (forget b) = sjumps b.
Proof.
  induction 1 as [|x b [Hl Hj] _ [IHl IHj]]; [split; reflexivity|].
  rewrite forget_cons, lbls_app, jumps_app, Hl, Hj, IHl, IHj. split; reflexivity.
Qed.
Lemma forget_marks_cases (cs : list (list rune * list scode)) :
  Forall (fun kc => Forall marks_ok (snd kc)) cs ->
  flat_map lbls (map (fun kc => forget (snd kc)) cs) = flat_map (fun kc => slbls (snd kc)) cs /\
  flat_map jumps (map (fun kc => forget (snd kc)) cs) = flat_map (fun kc => sjumps (snd kc)) cs.
Proof.
  induction 1 as [|kc cs Hk _ [IHl IHj]]; [split; reflexivity|]. cbn [map flat_map].
  destruct (forget_marks_list _ Hk) as [-> ->]. rewrite IHl, IHj. split; reflexivity.
Qed.
Lemma forget_marks1 x : marks_ok x.
Proof.
  induction x as [x Hx|b IH|cs d IHc IHd] using scode_ind2; unfold marks_ok; cbn [forget1 slbls1 sjumps1].
  - destruct x; try (split; reflexivity); destruct Hx.
  - rewrite lbls_block, jumps_block. exact (forget_marks_list b IH).
  - rewrite lbls_switch, jumps_switch. destruct (forget_marks_list d IHd) as [El Ej]. destruct (forget_marks_cases cs IHc) as [Cl Cj].
    split; f_equal; assumption.
Qed.
Lemma forget_marks c : lbls (forget c) = slbls c /\ jumps (forget c) = sjumps c.
Proof. apply forget_marks_list, Forall_forall. intros x _. apply forget_marks1. Qed.

(** the statements have the labels and jumps of their skeleton ([forget_marks]), so what Proofs/EmitWF.v says of
    the skeleton's holds of theirs *)
Section Ranges.
Variable g : grammar.
Variable ptx : nat.
Variable ast : bool.
Variable inl asu used : nat -> bool.
Notation semit := (SEmit.semit g ptx ast inl asu used).

(** the labels of [c] that a jump can land on, those at its top level, lie in [l, l1) *)
Definition rng (l : nat) (c : list scode) (l1 : nat) : Prop := l <= l1 /\ forall j, In j (toplbls c) -> l <= j < l1.

Lemma lbls_rng l c l1 : l <= l1 -> (forall x, In x (lbls (forget c)) -> l <= x < l1 /\ used x = true) -> rng l c l1.
Proof. intros A C. split; [exact A|]. intros j Hj. apply C. rewrite (proj1 (forget_marks c)). apply top_in_all, Hj. Qed.

Lemma Em_rng ko l c l1 ll : Em ast used ko l (forget c) l1 ll -> rng l c l1.
Proof. intros E. destruct (proj1 (ranges ast used) _ _ _ _ _ E) as (A & _ & C). exact (lbls_rng _ _ _ A C). Qed.

Theorem semit_rng n e ko pd mk l c l1 ll : semit n e ko pd mk l = (c, l1, ll) -> rng l c l1.
Proof.
  intros E. pose proof (forget_semit g ptx ast inl asu used n e ko pd mk l) as F. rewrite E in F.
  apply emit_Em in F. exact (Em_rng _ _ _ _ _ F).
Qed.

Lemma seq_rng n es ko pd mk l ll c l1 ll1 : sseq_emit (semit n) es ko pd mk l ll = (c, l1, ll1) -> rng l c l1.
Proof.
  intros E. pose proof (forget_seq _ _ (forget_semit g ptx ast inl asu used n) es ko pd mk l ll) as F. rewrite E in F.
  apply seq_emit_Em with (ast := ast) (used := used) in F; [|apply emit_Em]. destruct F as (ll' & F & _). exact (Em_rng _ _ _ _ _ F).
Qed.

Lemma alt_rng n es ko ok l c l1 : salt_emit used (semit n) es ko ok l = (c, l1) -> rng l c l1.
Proof.
  intros E. pose proof (forget_alt used _ _ (forget_semit g ptx ast inl asu used n) es ko ok l) as F. rewrite E in F.
  apply alt_emit_Em with (ast := ast) (used := used) in F; [|apply emit_Em]. destruct (proj1 (proj2 (ranges ast used)) _ _ _ _ _ F) as (A & _ & C).
  exact (lbls_rng _ _ _ A C).
Qed.

Lemma cases_rng n cs ko l cl l1 : scases_emit (semit n) cs ko l = (cl, l1) -> l <= l1.
Proof.
  intros E. pose proof (forget_cases _ _ (forget_semit g ptx ast inl asu used n) cs ko l) as F. rewrite E in F.
  apply cases_emit_Em with (ast := ast) (used := used) in F; [|apply emit_Em]. exact (proj1 (proj2 (proj2 (ranges ast used)) _ _ _ _ F)).
Qed.

End Ranges.
Arguments semit_rng {g ptx ast inl asu used n e ko pd mk l c l1 ll} _.
Arguments seq_rng {g ptx ast inl asu used n es ko pd mk l ll c l1 ll1} _.
Arguments alt_rng {g ptx ast inl asu used n es ko ok l c l1} _.
Arguments cases_rng {g ptx ast inl asu used n cs ko l cl l1} _.

Section Sound.
Variable g : grammar.
Variable ptx : nat.
Variable buf : list rune.
Variable penv : nat -> nat -> bool.
Variable o : opts.
Variable inl : nat -> bool.          (* where the emitter compiles a rule in place; [deep] asks that it agrees with [o] on the names met *)
Variable used : nat -> bool.
Variable fn : nat -> option (list scode).
Variable callable : nat -> bool.          (* the rules that have a function in the table *)

Notation semit := (SEmit.semit g ptx (o_ast o) inl (o_asu o) used).
Notation sipush := (SEmit.sipush_emit g (o_ast o)).
Notation run := (run_f g ptx buf penv o).
Notation xs := (Exec.xs buf penv o fn).
Notation xi := (Exec.xi buf penv o fn).
Notation xcall := (Exec.xcall buf penv o fn).
Notation jump := (Exec.jump buf penv o fn).

Notation deep := (SEmit.deep g (o_inline o) inl callable).
Notation rdeep := (SEmit.rdeep g (o_inline o) inl callable).

Definition frame (l l1 : nat) (e e' : nat -> nat * nat) : Prop := forall j, j < l \/ l1 <= j -> e' j = e j.
Lemma frame_refl l l1 e : frame l l1 e e.
Proof. intros j _. reflexivity. Qed.
Lemma frame_trans l l1 e e1 e2 : frame l l1 e e1 -> frame l l1 e1 e2 -> frame l l1 e e2.
Proof. intros H1 H2 j Hj. rewrite H2 by exact Hj. apply H1, Hj. Qed.
Lemma frame_weaken l l1 a b e e' : a <= l -> l1 <= b -> frame l l1 e e' -> frame a b e e'.
Proof. intros A B H j Hj. apply H. lia. Qed.
Lemma frame_set v w l l1 x e' : v < l -> l <= l1 -> frame l l1 (xenv (setenv x v w)) e' -> frame v l1 (xenv x) e' /\ e' v = w.
Proof.
  intros Hv Hl F. split.
  - intros j Hj. rewrite F by lia. cbn [setenv xenv]. destruct (Nat.eqb_spec j v); [lia|reflexivity].
  - rewrite F by lia. cbn [setenv xenv]. rewrite Nat.eqb_refl. reflexivity.
Qed.

(** [ce], followed by [post] in the list [c], does from [x] what the machine did with result [res]: in
    continuation style, so that a result is whatever the rest of [c] makes of it.  (Used in this file only; the theorem
    [sim] of Proofs/Sim.v, machine against semantics, is something else: Proofs/SEmitFile.v imports both and means that one.) *)
Definition sim (c ce post : list scode) (ko l l1 : nat) (x : xst) (res : mres) : Prop :=
  match res with
  | Crash => xs c (ce ++ post) x OCrash
  | Ret true m' => exists e' pf', frame l l1 (xenv x) e' /\
      forall out, xs c post (mkx m' e' pf') out -> xs c (ce ++ post) x out
  | Ret false m' => In ko (sjumps ce) /\ exists e' pf', frame l l1 (xenv x) e' /\
      forall out, jump c ko (mkx m' e' pf') out -> xs c (ce ++ post) x out
  end.

(** [c] is the statement list [ce] sits in; its other top-level labels are outside the range of [ce]'s *)
Definition ctx (c pre ce post : list scode) (l l1 : nat) : Prop :=
  c = pre ++ ce ++ post /\ forall j, l <= j < l1 -> ~ In j (toplbls pre) /\ ~ In j (toplbls post).

Lemma jumps_block_mid a c1 z ko : In ko (sjumps c1) -> In ko (sjumps [SBlock (a ++ c1 ++ z)]).
Proof.
  intros H. cbn [sjumps flat_map sjumps1]. change (flat_map sjumps1) with sjumps. rewrite app_nil_r, !sjumps_app.
  apply in_or_app. right. apply in_or_app. left. exact H.
Qed.
Lemma jumps_cons_block b tl j : In j (sjumps b) -> In j (sjumps (SBlock b :: tl)).
Proof. intros H. cbn [sjumps flat_map sjumps1]. apply in_or_app. left. exact H. Qed.

(** every label the code jumps to was seen by the dry pass, so its [slbl_if] is there *)
Definition jumps_used (c : list scode) : Prop := forall j, In j (sjumps c) -> used j = true.
Lemma jumps_used_app a b : jumps_used (a ++ b) -> jumps_used a /\ jumps_used b.
Proof. intros H. split; intros j Hj; apply H; rewrite sjumps_app; apply in_or_app; [left|right]; exact Hj. Qed.
Lemma jumps_used_block b tl : jumps_used (SBlock b :: tl) -> jumps_used b.
Proof. intros H j Hj. apply H, jumps_cons_block, Hj. Qed.

Definition calls_ok (n : nat) : Prop :=
  forall r m res, o_inline o r = false -> callable r = true -> (exists b, nth_error g r = Some b /\ b <> RNil) ->
    rule_fn g o (run n) r m = Some res -> xcall r m res.

(** what is asked of the code [ce] of an expression, and all that the lemmas below about blocks, catches and loops
    know of the code they are built around: its labels lie in [l, l1), and in any list whose other labels lie outside it
    does from [m] what the machine did with result [res] *)
Definition does (ko l : nat) (ce : list scode) (l1 : nat) (m : mstate) (res : mres) : Prop :=
  rng l ce l1 /\
  forall c pre post env pf, ctx c pre ce post l l1 -> jumps_used ce -> sim c ce post ko l l1 (mkx m env pf) res.

Definition SoundE (n : nat) : Prop :=
  forall nf e ko pd mk l ce l1 ll, deep nf e = true -> semit nf e ko pd mk l = (ce, l1, ll) -> ko < l ->
  forall m res, run n e pd mk m = Some res -> does ko l ce l1 m res.
Lemma SoundE_does {n nf e ko pd mk l ce l1 ll m res} :
  SoundE n -> deep nf e = true -> semit nf e ko pd mk l = (ce, l1, ll) -> ko < l -> run n e pd mk m = Some res -> does ko l ce l1 m res.
Proof. intros IH Hd E Hko R. exact (IH _ _ _ _ _ _ _ _ _ Hd E Hko _ _ R). Qed.

Lemma step_fall c i k x x' out : xi i x (OFall x') -> xs c k x' out -> xs c (i :: k) x out.
Proof. apply xs_fall. Qed.

Lemma xs_jump c i k x l x' out : xi i x (OGoto l x') -> jump c l x' out -> xs c (i :: k) x out.
Proof.
  intros Hi Hj. unfold Exec.jump in Hj. destruct (after_label l c) as [k2|] eqn:E.
  - eapply xs_goto_here; eassumption.
  - subst out. eapply xs_goto_out; eassumption.
Qed.

Lemma sim_nil c post ko l m env pf : sim c [] post ko l l (mkx m env pf) (Ret true m).
Proof. exists env, pf. split; [apply frame_refl|auto]. Qed.

Lemma sim_fall c i post ko l m env pf m' pf' :
  xi i (mkx m env pf) (OFall (mkx m' env pf')) -> sim c [i] post ko l l (mkx m env pf) (Ret true m').
Proof. intros X. exists env, pf'. split; [apply frame_refl|]. intros out. apply xs_fall, X. Qed.

Lemma sim_cond c q post ko l m env pf res :
  xi (SCond q ko) (mkx m env pf)
     (match res with Crash => OCrash | Ret true m' => OFall (mkx m' env pf) | Ret false m' => OGoto ko (mkx m' env pf) end) ->
  sim c [SCond q ko] post ko l l (mkx m env pf) res.
Proof.
  intros X. destruct res as [|[|] m']; cbn [sim app].
  - apply xs_crash, X.
  - exists env, pf. split; [apply frame_refl|]. intros out. apply xs_fall, X.
  - split; [left; reflexivity|]. exists env, pf. split; [apply frame_refl|]. intros out. apply xs_jump, X.
Qed.

(** "if <the character is wrong> { goto ko }; position++" is the machine's terminal test *)
Lemma sim_test c q ok post ko l m env pf :
  xi (SCond q ko) (mkx m env pf) (rdtest buf ok ko (mkx m env pf)) ->
  sim c [SCond q ko; SInc] post ko l l (mkx m env pf) (mterm buf ok m).
Proof.
  unfold rdtest, mterm. cbn [xm]. intros X. destruct (rd buf m) as [ch|]; [destruct (ok ch)|]; cbn [sim app].
  - exists env, pf. split; [apply frame_refl|]. intros out H. eapply xs_fall; [exact X|]. eapply xs_fall; [apply xi_inc|exact H].
  - split; [left; reflexivity|]. exists env, pf. split; [apply frame_refl|]. intros out. apply xs_jump, X.
  - apply xs_crash, X.
Qed.

Lemma sim_weaken c ce post ko l l1 a b x res : a <= l -> l1 <= b -> sim c ce post ko l l1 x res -> sim c ce post ko a b x res.
Proof.
  intros A B S. destruct res as [|[|] m']; cbn [sim] in *.
  - exact S.
  - destruct S as (e' & pf' & F & K). exists e', pf'. split; [exact (frame_weaken _ _ _ _ _ _ A B F)|exact K].
  - destruct S as (J & e' & pf' & F & K). split; [exact J|]. exists e', pf'. split; [exact (frame_weaken _ _ _ _ _ _ A B F)|exact K].
Qed.

Lemma sim_after c c0 c' post ko l l1 x m1 e1 pf1 res :
  frame l l1 (xenv x) e1 -> (forall out, xs c (c' ++ post) (mkx m1 e1 pf1) out -> xs c (c0 ++ c' ++ post) x out) ->
  sim c c' post ko l l1 (mkx m1 e1 pf1) res -> sim c (c0 ++ c') post ko l l1 x res.
Proof.
  intros F K S. destruct res as [|[|] m2]; cbn [sim] in *.
  - rewrite <- app_assoc. apply K. exact S.
  - destruct S as (e2 & pf2 & F2 & K2). exists e2, pf2. split; [exact (frame_trans _ _ _ _ _ F F2)|].
    intros out H. rewrite <- app_assoc. apply K. apply K2. exact H.
  - destruct S as (J & e2 & pf2 & F2 & K2). split; [rewrite sjumps_app; apply in_or_app; right; exact J|].
    exists e2, pf2. split; [exact (frame_trans _ _ _ _ _ F F2)|].
    intros out H. rewrite <- app_assoc. apply K. apply K2. exact H.
Qed.

(** [c0] and then, where it succeeds, [c']: the machine's sequencing *)
Lemma sim_seq {c c0 c' post ko l l1 x r1 res} :
  sim c c0 (c' ++ post) ko l l1 x r1 ->
  match r1 with
  | Ret true m1 => forall e1 pf1, frame l l1 (xenv x) e1 -> sim c c' post ko l l1 (mkx m1 e1 pf1) res
  | _ => res = r1
  end ->
  sim c (c0 ++ c') post ko l l1 x res.
Proof.
  intros S0 S'. destruct r1 as [|[|] m1]; cbn [sim] in S0.
  - subst res. cbn [sim]. rewrite <- app_assoc. exact S0.
  - destruct S0 as (e1 & pf1 & F1 & K1). exact (sim_after _ _ _ _ _ _ _ _ m1 e1 pf1 _ F1 K1 (S' e1 pf1 F1)).
  - subst res. destruct S0 as (J & e2 & pf2 & F2 & K2). split; [rewrite sjumps_app; apply in_or_app; left; exact J|].
    exists e2, pf2. split; [exact F2|]. intros out H. rewrite <- app_assoc. apply K2. exact H.
Qed.

Lemma ctx_first c pre a b post l l0 l2 :
  ctx c pre (a ++ b) post l l2 -> l <= l0 -> l0 <= l2 -> (forall j, In j (toplbls b) -> l0 <= j < l2) -> ctx c pre a (b ++ post) l l0.
Proof.
  intros [E H] L1 L2 Hb. split; [rewrite E, <- app_assoc; reflexivity|].
  intros j Hj. destruct (H j ltac:(lia)) as [H1 H2]. split; [exact H1|].
  rewrite toplbls_app, in_app_iff. intros [X|X]; [|exact (H2 X)]. specialize (Hb j X). lia.
Qed.
Lemma ctx_second c pre a b post l l0 l2 :
  ctx c pre (a ++ b) post l l2 -> l <= l0 -> l0 <= l2 -> (forall j, In j (toplbls a) -> l <= j < l0) -> ctx c (pre ++ a) b post l0 l2.
Proof.
  intros [E H] L1 L2 Ha. split; [rewrite E, <- !app_assoc; reflexivity|].
  intros j Hj. destruct (H j ltac:(lia)) as [H1 H2]. split; [|exact H2].
  rewrite toplbls_app, in_app_iff. intros [X|X]; [exact (H1 X)|]. specialize (Ha j X). lia.
Qed.

Lemma seq_sound n : SoundE n -> forall nf es ko pd mk l ll0 ce l1 ll1,
  forallb (deep nf) es = true -> sseq_emit (semit nf) es ko pd mk l ll0 = (ce, l1, ll1) -> ko < l ->
  forall m res, seq_run (run n) es pd mk m = Some res ->
  forall c pre post env pf, ctx c pre ce post l l1 -> jumps_used ce ->
    sim c ce post ko l l1 (mkx m env pf) res.
Proof.
  intros IH nf es. induction es as [|x es IHes]; intros ko pd mk l ll0 ce l1 ll1 Hd E Hko m res R c pre post env pf Hc Hu.
  - cbn in E, R. inv E. inv R. apply sim_nil.
  - cbn [forallb] in Hd. apply andb_true_iff in Hd. destruct Hd as [Hdx Hdes]. cbn [sseq_emit] in E.
    destruct (semit nf x ko pd mk l) as [[c0 l0] llx] eqn:Ex. destruct (sseq_emit (semit nf) es ko false false l0 _) as [[c' l2] ll2] eqn:Ees. inv E.
    cbn [seq_run] in R. destruct (run n x pd mk m) as [r1|] eqn:Rx; [|discriminate].
    destruct (SoundE_does IH Hdx Ex Hko Rx) as [(A1 & A2) D0]. destruct (seq_rng Ees) as (B1 & B2).
    destruct (jumps_used_app _ _ Hu) as [Hu0 Hu'].
    pose proof (D0 _ _ _ env pf (ctx_first _ _ _ _ _ _ _ _ Hc A1 B1 B2) Hu0) as S0.
    apply (sim_weaken _ _ _ _ _ _ l l1 _ _ (le_n _) B1) in S0. apply (sim_seq S0).
    destruct r1 as [|[|] m1]; [inv R; reflexivity| |inv R; reflexivity]. intros e1 pf1 _.
    apply (sim_weaken _ _ _ _ l0 l1 _ _ _ _ A1 (le_n _)).
    exact (IHes _ _ _ _ _ _ _ _ Hdes Ees (Nat.lt_le_trans _ _ _ Hko A1) _ _ R _ _ _ e1 pf1 (ctx_second _ _ _ _ _ _ _ _ Hc A1 B1 A2) Hu').
Qed.

Lemma slbl_if_used n : used n = true -> slbl_if used n = [SLbl n].
Proof. intros H. unfold slbl_if. rewrite H. reflexivity. Qed.
Lemma xs_skip_lbl_if c n k x out : xs c k x out -> xs c (slbl_if used n ++ k) x out.
Proof. intros H. unfold slbl_if. destruct (used n); cbn [app]; [eapply xs_fall; [apply xi_lbl|exact H]|exact H]. Qed.
Lemma toplbls_lbl_if n j : In j (toplbls (slbl_if used n)) -> j = n.
Proof. unfold slbl_if. destruct (used n); cbn; intros H; [destruct H as [H|[]]; auto|destruct H]. Qed.

Lemma after_label_at l a rest : ~ In l (toplbls a) -> after_label l (a ++ SLbl l :: rest) = Some rest.
Proof. intros H. rewrite after_label_skip by exact H. apply after_label_hit. Qed.
Lemma jump_out b l x : ~ In l (toplbls b) -> jump b l x (OGoto l x).
Proof. intros H. unfold Exec.jump. rewrite after_label_none by exact H. reflexivity. Qed.
Lemma jump_at b a rest l x out : ~ In l (toplbls a) -> b = a ++ SLbl l :: rest -> xs b rest x out -> jump b l x out.
Proof. intros H -> X. unfold Exec.jump. rewrite after_label_at by exact H. exact X. Qed.

Lemma block_fall c b k x x' out : xs b b x (OFall x') -> xs c k x' out -> xs c (SBlock b :: k) x out.
Proof. intros B K. eapply xs_fall; [apply xi_block; exact B|exact K]. Qed.
Lemma block_goto c b k x l x' out : xs b b x (OGoto l x') -> jump c l x' out -> xs c (SBlock b :: k) x out.
Proof. intros B K. eapply xs_jump; [apply xi_block; exact B|exact K]. Qed.
Lemma block_crash c b k x : xs b b x OCrash -> xs c (SBlock b :: k) x OCrash.
Proof. intros B. apply xs_crash. apply xi_block. exact B. Qed.

Lemma toplbls_catch j n k c' i : In i (toplbls ([SJmp j] ++ slbl_if used n ++ [SRestore k] ++ c')) -> i = n \/ In i (toplbls c').
Proof.
  rewrite !toplbls_app, !in_app_iff. intros [[]|[X|[[]|X]]]; [left; exact (toplbls_lbl_if _ _ X)|right; exact X].
Qed.

Lemma block_sim c hd ce post ko v w la lb m env pf res :
  xi hd (mkx m env pf) (OFall (setenv (mkx m env pf) v w)) -> v < la -> la <= lb -> ~ In ko (toplbls (hd :: ce)) ->
  sim (hd :: ce) ce [] ko la lb (setenv (mkx m env pf) v w) res -> sim c [SBlock (hd :: ce)] post ko v lb (mkx m env pf) res.
Proof.
  intros Hhd Hv Hl Hko S. destruct res as [|[|] m']; cbn [sim app] in *; rewrite app_nil_r in S.
  - apply block_crash. eapply xs_fall; [exact Hhd|exact S].
  - destruct S as (e' & pf' & F & K). exists e', pf'. split; [exact (proj1 (frame_set v w la lb (mkx m env pf) e' Hv Hl F))|].
    intros out H. eapply block_fall; [|exact H]. eapply xs_fall; [exact Hhd|]. apply K, xs_nil.
  - destruct S as (J & e' & pf' & F & K). split; [apply jumps_cons_block, in_or_app; right; exact J|].
    exists e', pf'. split; [exact (proj1 (frame_set v w la lb (mkx m env pf) e' Hv Hl F))|].
    intros out H. eapply block_goto; [|exact H]. eapply xs_fall; [exact Hhd|]. apply K, jump_out, Hko.
Qed.

(** { v := ..; c1; fin } where [fin] uses [v] and falls through: &e, < e >, a rule compiled in place *)
Lemma wrap_sound {ko v c1 lb m r1} : does ko (S v) c1 lb m r1 -> ko < v ->
  forall hd fin w final env pf,
    xi hd (mkx m env pf) (OFall (setenv (mkx m env pf) v w)) -> top1 hd = [] ->
    (forall x, xi fin x (OFall (setm x (final (xm x) (xenv x v))))) -> top1 fin = [] ->
    jumps_used [SBlock (hd :: c1 ++ [fin])] ->
  forall c post, sim c [SBlock (hd :: c1 ++ [fin])] post ko v lb (mkx m env pf)
                   (match r1 with Ret true m1 => Ret true (final m1 w) | r => r end).
Proof.
  intros [(A1 & A2) D1] Hko hd fin w final env pf Hhd Htop Hfin Hftop Hu c post.
  apply (block_sim _ _ _ _ _ _ w (S v) _ _ _ _ _ Hhd (le_n _) A1).
  { change (~ In ko (toplbls ([hd] ++ c1 ++ [fin]))). rewrite !toplbls_app. cbn [toplbls flat_map]. rewrite Htop, Hftop. cbn [app]. rewrite app_nil_r.
    intros X. apply A2 in X. lia. }
  assert (Hcb : ctx (hd :: c1 ++ [fin]) [hd] c1 [fin] (S v) lb).
  { split; [reflexivity|]. intros j _. cbn [toplbls flat_map]. rewrite Htop, Hftop. split; intros []. }
  pose proof (D1 _ _ _ (xenv (setenv (mkx m env pf) v w)) pf Hcb (fun j Hj => Hu j (jumps_block_mid [hd] c1 [fin] j Hj))) as S1.
  apply (sim_seq (c' := [fin]) (post := []) S1). destruct r1 as [|[|] m1]; [reflexivity| |reflexivity]. intros e' pf' F. cbn [sim app].
  exists e', pf'. split; [apply frame_refl|]. intros out H. eapply xs_fall; [apply Hfin|]. cbn [xm xenv setm].
  rewrite (F v) by (left; apply le_n). cbn [setenv xenv]. rewrite Nat.eqb_refl. exact H.
Qed.

(** c0; goto j; ll: restore v  -  the failure of [c0] is caught at [l] and undone, its success leaves for [j]; [v] holds
    the position to come back to.  With [j] as the failure label the piece fails exactly when [c0] matches. *)
Definition caught (p0 t0 : nat) (r1 : mres) : mres :=
  match r1 with Ret true m1 => Ret false m1 | Ret false m1 => Ret true (restore p0 t0 m1) | Crash => Crash end.

Lemma catch_seg j v {l la c0 lb m r1} : does l la c0 lb m r1 -> l < la -> v < la ->
  forall b pre rest env pf p0 t0,
    b = pre ++ (c0 ++ [SJmp j] ++ slbl_if used l ++ [SRestore v]) ++ rest ->
    (forall i, i = l \/ la <= i < lb -> ~ In i (toplbls pre)) -> (forall i, la <= i < lb -> ~ In i (toplbls rest)) ->
    env v = (p0, t0) -> jumps_used c0 ->
    sim b (c0 ++ [SJmp j] ++ slbl_if used l ++ [SRestore v]) rest j la lb (mkx m env pf) (caught p0 t0 r1).
Proof.
  intros [(A1 & A2) D1] Hl Hv b pre rest env pf p0 t0 Eb Hpre Hrest Henv Hu.
  assert (Hc : ctx b pre c0 (([SJmp j] ++ slbl_if used l ++ [SRestore v]) ++ rest) la lb).
  { split; [rewrite Eb, <- app_assoc; reflexivity|]. intros i Hi. split; [apply Hpre; right; exact Hi|].
    rewrite <- !app_assoc. intros X. apply toplbls_catch in X. destruct X as [X|X]; [lia|exact (Hrest i Hi X)]. }
  pose proof (D1 b _ _ env pf Hc Hu) as S1.
  destruct r1 as [|[|] m1]; cbn [sim caught] in *; rewrite <- app_assoc.
  - exact S1.
  - destruct S1 as (e' & pf' & F & K). split; [rewrite sjumps_app; apply in_or_app; right; left; reflexivity|].
    exists e', pf'. split; [exact F|]. intros out H. apply K. eapply xs_jump; [apply xi_jmp|exact H].
  - destruct S1 as (J & e' & pf' & F & K). exists e', pf'. split; [exact F|]. intros out H. apply K.
    apply (jump_at b (pre ++ c0 ++ [SJmp j]) (SRestore v :: rest)).
    + rewrite !toplbls_app, !in_app_iff. intros [X|[X|[]]]; [exact (Hpre l (or_introl eq_refl) X)|apply A2 in X; lia].
    + rewrite Eb, (slbl_if_used l (Hu _ J)), <- !app_assoc. reflexivity.
    + eapply xs_fall; [apply xi_restore|]. cbn [xenv xm setm]. rewrite (F v) by (left; exact Hv). cbn [xenv]. rewrite Henv. exact H.
Qed.

Lemma toplbls_seg c0 j l v i : In i (toplbls (c0 ++ [SJmp j] ++ slbl_if used l ++ [SRestore v])) -> In i (toplbls c0) \/ i = l.
Proof.
  rewrite toplbls_app, in_app_iff. intros [X|X]; [left; exact X|].
  apply (toplbls_catch j l v []) in X. destruct X as [X|[]]. right. exact X.
Qed.

(** { save out; c1; goto j; lout: restore out }: !e, e?, a round of e* *)
Definition loop_body (j out : nat) (c1 : list scode) : list scode :=
  SSave out :: c1 ++ [SJmp j] ++ slbl_if used out ++ [SRestore out].

Lemma catch_sound j {out la c1 lb m r1} : does out la c1 lb m r1 -> out < la -> j < la -> j <> out ->
  jumps_used [SBlock (loop_body j out c1)] ->
  forall c post env pf, sim c [SBlock (loop_body j out c1)] post j out lb (mkx m env pf) (caught (pos m) (tix m) r1).
Proof.
  intros D1 Hout Hj Hjo Hu c post env pf. destruct (proj1 D1) as (A1 & A2).
  apply (block_sim _ _ _ _ _ _ (pos m, tix m) la _ _ _ _ _ (xi_save _ _ _ _ _ _) Hout A1).
  { change (~ In j (toplbls ([SSave out] ++ c1 ++ [SJmp j] ++ slbl_if used out ++ [SRestore out]))). rewrite toplbls_app, in_app_iff.
    intros [[]|X]. apply toplbls_seg in X. destruct X as [X|X]; [apply A2 in X; lia|exact (Hjo X)]. }
  apply (catch_seg j out D1 Hout Hout _ [SSave out] []).
  - rewrite app_nil_r. reflexivity.
  - intros i _ [].
  - intros i _ [].
  - cbn [setenv xenv]. rewrite Nat.eqb_refl. reflexivity.
  - intros i Hi. exact (Hu i (jumps_block_mid [SSave out] c1 _ i Hi)).
Qed.

(** the label behind [ce] that [ce] leaves for on failure: the failure is a success there *)
Lemma sim_label c ce post j ko l l1 x res :
  sim c ce (slbl_if used j ++ post) j l l1 x res -> (In j (sjumps ce) -> after_label j c = Some post) ->
  sim c (ce ++ slbl_if used j) post ko l l1 x (match res with Ret false m' => Ret true m' | r => r end).
Proof.
  intros S Hal. destruct res as [|[|] m']; cbn [sim] in *; rewrite <- app_assoc.
  - exact S.
  - destruct S as (e' & pf' & F & K). exists e', pf'. split; [exact F|]. intros out H. apply K, xs_skip_lbl_if, H.
  - destruct S as (J & e' & pf' & F & K). exists e', pf'. split; [exact F|]. intros out H. apply K.
    unfold Exec.jump. rewrite (Hal J). exact H.
Qed.
Lemma ctx_label c pre ce j post l l1 :
  ctx c pre (ce ++ slbl_if used j) post l l1 -> l <= j < l1 -> toplbls ce = [] -> used j = true -> after_label j c = Some post.
Proof.
  intros [-> H] Hj Hce Hu. rewrite (slbl_if_used j Hu), <- app_assoc, after_label_skip by exact (proj1 (H j Hj)).
  apply after_label_at. rewrite Hce. intros [].
Qed.

Definition SoundLe (n : nat) : Prop := forall k, k <= n -> SoundE k.

(** the body of a loop does what the machine does with it at every fuel the loop may hand it *)
Definition does_upto (n : nat) (e1 : expr) (out la : nat) (c2 : list scode) (lb : nat) : Prop :=
  forall k m r1, k <= n -> run k e1 false false m = Some r1 -> does out la c2 lb m r1.
Lemma SoundLe_upto n nf e1 out la c2 lb ll2 :
  SoundLe n -> deep nf e1 = true -> semit nf e1 out false false la = (c2, lb, ll2) -> out < la -> does_upto n e1 out la c2 lb.
Proof. intros IH Hd E Hol k m r1 Lk R1. exact (SoundE_does (IH k Lk) Hd E Hol R1). Qed.

Lemma loop_sound n e1 again out la lb c2 : does_upto n e1 out la c2 lb -> again < out -> out < la ->
  jumps_used [SBlock (loop_body again out c2)] ->
  forall c pre post ko, c = pre ++ SLbl again :: SBlock (loop_body again out c2) :: post -> ~ In again (toplbls pre) ->
  forall k, k <= S n -> forall m res env pf, run k (EStar e1) false false m = Some res ->
    match res with Ret false _ => False | _ => sim c [SBlock (loop_body again out c2)] post ko out lb (mkx m env pf) res end.
Proof.
  intros D Hao Hol Hu c pre post ko Ec Hpre k. induction k as [|k IHk]; intros Lk m res env pf R; [discriminate|].
  cbn [run_f] in R. destruct (run k e1 false false m) as [r1|] eqn:R1; [|discriminate].
  pose proof (catch_sound again (D k m r1 (le_S_n _ _ Lk) R1) Hol (Nat.lt_trans _ _ _ Hao Hol) (Nat.lt_neq _ _ Hao) Hu c post env pf) as S1.
  destruct r1 as [|[|] m1]; cbn [sim app] in S1; [inv R; exact S1| |inv R; exact S1].
  (* one more round: the jump to [again] re-enters the block *)
  destruct S1 as (_ & e1' & pf1 & F1 & K1).
  specialize (IHk (Nat.lt_le_incl _ _ Lk) m1 res e1' pf1 R).
  assert (Hgo : forall o', xs c (SBlock (loop_body again out c2) :: post) (mkx m1 e1' pf1) o' ->
                           xs c (SBlock (loop_body again out c2) :: post) (mkx m env pf) o').
  { intros o' H. apply K1. unfold Exec.jump. replace (after_label again c) with (Some (SBlock (loop_body again out c2) :: post)); [exact H|].
    rewrite Ec. symmetry. apply after_label_at, Hpre. }
  destruct res as [|[|] m2]; cbn [sim app] in *.
  - apply Hgo, IHk.
  - destruct IHk as (e2 & pf2 & F2 & K2). exists e2, pf2. split; [exact (frame_trans _ _ _ _ _ F1 F2)|]. intros o' H. apply Hgo, K2, H.
  - exact IHk.
Qed.

(** lagain: { .. goto again .. } *)
Lemma star_sound n e1 again out la lb c2 : does_upto n e1 out la c2 lb -> again < out -> out < la ->
  forall k m res, k <= S n -> run k (EStar e1) false false m = Some res ->
  forall c pre post ko env pf, c = pre ++ (slbl_if used again ++ [SBlock (loop_body again out c2)]) ++ post -> ~ In again (toplbls pre) ->
    jumps_used [SBlock (loop_body again out c2)] ->
    sim c (slbl_if used again ++ [SBlock (loop_body again out c2)]) post ko again lb (mkx m env pf) res.
Proof.
  intros D Hao Hol k m res Lk R c pre post ko env pf Ec Hpre Hu.
  rewrite (slbl_if_used again) in * by exact (Hu _ (jumps_block_mid (SSave out :: c2) [SJmp again] _ _ (or_introl eq_refl))).
  pose proof (loop_sound n _ _ _ _ _ _ D Hao Hol Hu c pre post ko Ec Hpre k Lk m res env pf R) as S1.
  assert (Hl : forall r, sim c [SBlock (loop_body again out c2)] post ko out lb (mkx m env pf) r ->
                         sim c ([SLbl again] ++ [SBlock (loop_body again out c2)]) post ko again lb (mkx m env pf) r).
  { intros r S. apply (sim_after _ _ _ _ _ _ _ _ m env pf); [apply frame_refl|intros o'; apply xs_fall, xi_lbl|].
    exact (sim_weaken _ _ _ _ _ _ _ _ _ _ (Nat.lt_le_incl _ _ Hao) (le_n _) S). }
  destruct res as [|[|] m1]; [exact (Hl _ S1)|exact (Hl _ S1)|destruct S1].
Qed.

Lemma sim_skip c ce post n ko l l1 x res :
  sim c ce (slbl_if used n ++ post) ko l l1 x res -> sim c (ce ++ slbl_if used n) post ko l l1 x res.
Proof.
  intros S. apply (sim_seq S). destruct res as [|[|] m']; [reflexivity| |reflexivity].
  intros e' pf' _. exists e', pf'. split; [apply frame_refl|]. intros out. apply xs_skip_lbl_if.
Qed.

(** The alternatives, inside the block that [choice_sound] puts around them.  [sim] alone does not cover them: it
    speaks of falling through into what follows in the same list, and an alternative that is not the last succeeds
    by [goto ok], a label of the list outside the block; that way out is the second disjunct. *)
Lemma alt_sound n : SoundE n -> forall nf es ko ok l calt l1,
  forallb (deep nf) es = true -> salt_emit used (semit nf) es ko ok l = (calt, l1) -> es <> [] -> ko < ok -> ok < l ->
  forall m res p0 t0, alt_run (run n) es false false p0 t0 m = Some res ->
  forall b preb env pf, b = preb ++ calt -> (forall j, j = ko \/ j = ok \/ l <= j < l1 -> ~ In j (toplbls preb)) ->
    env ok = (p0, t0) -> jumps_used calt ->
    sim b calt [] ko l l1 (mkx m env pf) res \/
    exists m' e' pf', res = Ret true m' /\ frame l l1 env e' /\ In ok (sjumps calt) /\
      xs b calt (mkx m env pf) (OGoto ok (mkx m' e' pf')).
Proof.
  intros IH nf es. induction es as [|x es IHes]; intros ko ok l calt l1 Hd E Hne Hkk Hokl m res p0 t0 R b preb env pf Eb Hpre Henv Hu; [congruence|].
  cbn [forallb] in Hd. apply andb_true_iff in Hd. destruct Hd as [Hdx Hdes].
  cbn [alt_run] in R. destruct (run n x false false m) as [r1|] eqn:Rx; [|discriminate].
  destruct es as [|y es].
  - (* the last alternative fails to the outer label *)
    cbn [salt_emit] in E. destruct (semit nf x ko false false l) as [[c0 l0] ll0] eqn:Ex. inv E.
    assert (Hc : ctx (preb ++ calt) preb calt [] l l1).
    { split; [rewrite app_nil_r; reflexivity|]. intros j Hj. split; [exact (Hpre j (or_intror (or_intror Hj)))|intros []]. }
    pose proof (proj2 (SoundE_does IH Hdx Ex (Nat.lt_trans _ _ _ Hkk Hokl) Rx) _ _ _ env pf Hc Hu) as S1.
    left. destruct r1 as [|[|] m1]; inv R; exact S1.
  - (* an alternative that is not the last: on failure restore and try the next *)
    rewrite salt_emit_cons2 in E.
    destruct (semit nf x l false false (S l)) as [[c0 l0] ll0] eqn:Ex. destruct (salt_emit used (semit nf) (y :: es) ko ok l0) as [c' l2] eqn:Ees.
    set (seg := c0 ++ [SJmp ok] ++ slbl_if used l ++ [SRestore ok]).
    replace (c0 ++ [SJmp ok] ++ slbl_if used l ++ [SRestore ok] ++ c') with (seg ++ c') in E by (unfold seg; rewrite <- !app_assoc; reflexivity).
    inv E. destruct (semit_rng Ex) as (A1 & A2). destruct (alt_rng Ees) as (B1 & B2).
    assert (Hseg : forall j, In j (toplbls seg) -> S l <= j < l0 \/ j = l).
    { intros j X. apply toplbls_seg in X. destruct X as [X|X]; [left; apply A2 in X; exact X|right; exact X]. }
    destruct (jumps_used_app _ _ Hu) as [Hus Hu']. pose proof (proj1 (jumps_used_app c0 _ Hus)) as Hu0.
    pose proof (catch_seg ok ok (SoundE_does IH Hdx Ex (le_n _) Rx) (le_n _) (Nat.lt_trans _ _ _ Hokl (le_n _)) _ preb c' env pf p0 t0 eq_refl
                  ltac:(clear - Hpre A1 B1; intros i Hi; apply Hpre; lia)
                  ltac:(clear - B2; intros i Hi X; apply B2 in X; lia) Henv Hu0) as S1.
    fold seg in S1. destruct r1 as [|[|] m1]; cbn [sim caught] in S1.
    + inv R. left. cbn [sim]. rewrite app_nil_r. exact S1.
    + (* x matched: leave for ok *)
      inv R. destruct S1 as (J & e1 & pf1 & F1 & K1). right. exists m1, e1, pf1.
      split; [reflexivity|]. split; [exact (frame_weaken _ _ _ _ _ _ (le_S _ _ (le_n _)) B1 F1)|].
      split; [rewrite sjumps_app; apply in_or_app; left; exact J|]. apply K1, jump_out.
      clear - Hpre Hseg B2 Hkk Hokl A1. rewrite !toplbls_app, !in_app_iff.
      intros [X|[X|X]]; [exact (Hpre ok ltac:(lia) X)|apply Hseg in X; lia|apply B2 in X; lia].
    + (* x failed: the position is restored, the others are tried *)
      destruct S1 as (e1 & pf1 & F1 & K1). apply (frame_weaken _ _ l l1 _ _ (le_S _ _ (le_n _)) B1) in F1.
      assert (Hp2 : forall j, j = ko \/ j = ok \/ l0 <= j < l1 -> ~ In j (toplbls (preb ++ seg))).
      { clear - Hpre Hseg A1 B1 Hkk Hokl. intros j Hj. rewrite toplbls_app, in_app_iff. intros [X|X]; [exact (Hpre j ltac:(lia) X)|apply Hseg in X; lia]. }
      assert (Henv1 : e1 ok = (p0, t0)) by (rewrite (F1 ok) by (left; exact Hokl); exact Henv).
      assert (Hne' : y :: es <> []) by discriminate.
      destruct (IHes ko ok l0 c' l1 Hdes Ees Hne' Hkk (Nat.lt_trans _ _ _ Hokl (Nat.lt_le_trans _ _ _ (le_n _) A1)) _ _ _ _ R _ (preb ++ seg) e1 pf1
                  (app_assoc _ _ _) Hp2 Henv1 Hu') as [S2|(m2 & e2 & pf2 & -> & F2 & J2 & X2)].
      * left. apply (sim_after _ seg c' [] _ _ _ _ (restore p0 t0 m1) e1 pf1); [exact F1|intros out; rewrite app_nil_r; apply K1|].
        exact (sim_weaken _ _ _ _ _ _ _ _ _ _ (Nat.lt_le_incl _ _ A1) (le_n _) S2).
      * right. exists m2, e2, pf2. split; [reflexivity|].
        split; [exact (frame_trans _ _ _ _ _ F1 (frame_weaken _ _ _ _ _ _ (Nat.lt_le_incl _ _ A1) (le_n _) F2))|].
        split; [rewrite sjumps_app; apply in_or_app; right; exact J2|apply K1, X2].
Qed.

(** { save ok; alternatives }; lok: *)
Lemma choice_sound n : SoundE n -> forall nf es ko l calt l1,
  forallb (deep nf) es = true -> es <> [] -> salt_emit used (semit nf) es ko l (S l) = (calt, l1) -> ko < l ->
  forall m res, alt_run (run n) es false false (pos m) (tix m) m = Some res ->
  forall c pre post env pf, ctx c pre ([SBlock (SSave l :: calt)] ++ slbl_if used l) post l l1 ->
    jumps_used ([SBlock (SSave l :: calt)] ++ slbl_if used l) ->
    sim c ([SBlock (SSave l :: calt)] ++ slbl_if used l) post ko l l1 (mkx m env pf) res.
Proof.
  intros IH nf es ko l calt l1 Hd Hne Ea Hko m res R c pre post env pf Hc Hu.
  destruct (alt_rng Ea) as (B1 & B2).
  pose proof (proj2 (jumps_used_app [SSave l] calt (jumps_used_block _ _ Hu))) as Hua.
  destruct (alt_sound n IH nf es ko l (S l) calt l1 Hd Ea Hne Hko (le_n _) _ _ _ _ R (SSave l :: calt) [SSave l]
              (xenv (setenv (mkx m env pf) l (pos m, tix m))) pf eq_refl ltac:(intros j _ [])
              ltac:(cbn [setenv xenv]; rewrite Nat.eqb_refl; reflexivity) Hua) as [S1|(m1 & e' & pf' & -> & F & J & X)].
  - apply sim_skip, (block_sim _ _ _ _ _ _ (pos m, tix m) (S l) _ _ _ _ _ (xi_save _ _ _ _ _ _) (le_n _) B1); [|exact S1].
    intros T. apply B2 in T. lia.
  - (* an alternative before the last matched and left for ok *)
    exists e', pf'. split; [exact (proj1 (frame_set l _ (S l) l1 (mkx m env pf) e' (le_n _) B1 F))|].
    intros out H. eapply block_goto; [eapply xs_fall; [apply xi_save|exact X]|]. unfold Exec.jump.
    rewrite (ctx_label _ _ [SBlock _] _ _ _ _ Hc (conj (le_n _) B1) eq_refl (Hua _ J)). exact H.
Qed.

(** a rule compiled in place: { positionN := position; ...; add(rule, positionN) } *)
Lemma ipush_sound n : SoundE n -> forall nf r ko pd mk l ce l1 ll,
  rdeep nf r = true -> sipush (semit nf) r ko pd mk l = (ce, l1, ll) -> ko < l ->
  forall m res, ipush_run g o (run n) r pd mk m = Some res ->
  forall c post env pf, jumps_used ce ->
    sim c ce post ko l l1 (mkx m env pf) res.
Proof.
  intros IH nf r ko pd mk l ce l1 ll Hd E Hko m res R c post env pf Hu.
  unfold SEmit.rdeep in Hd. unfold sipush_emit in E. unfold ipush_run in R.
  destruct (nth_error g r) as [[b|k|]|] eqn:Eg; try discriminate.
  - destruct (semit nf b ko pd mk (S l)) as [[cb lb] llb] eqn:Eb. inv E.
    destruct (run n b pd mk m) as [r1|] eqn:Rb; [|discriminate].
    pose proof (wrap_sound (SoundE_does IH Hd Eb (Nat.lt_lt_succ_r _ _ Hko) Rb) Hko (SSaveP l) (SAddRule r l) (pos m, snd (env l))
                  (fun m' v => add o r (fst v) m') env pf (xi_savep _ _ _ _ _ _) eq_refl (xi_addrule _ _ _ _ r l) eq_refl Hu c post) as S1.
    destruct r1 as [|[|] m1]; inv R; exact S1.
  - inv E. apply (sim_weaken _ _ _ _ l l); [apply le_n|lia|].
    assert (X : forall i m', xi i (mkx m env pf) (OFall (mkx m' env pf)) -> sim c [SBlock [i]] post ko l l (mkx m env pf) (Ret true m')).
    { intros i m' X. exists env, pf. split; [apply frame_refl|]. intros out. apply block_fall. eapply xs_fall; [exact X|apply xs_nil]. }
    destruct (o_ast o); inv R; apply X; [apply xi_addact|apply xi_logact].
Qed.

Lemma sjumps_switch cl dflt : sjumps [SSwitch cl dflt] = flat_map (fun kc : list rune * list scode => sjumps (snd kc)) cl ++ sjumps dflt.
Proof. cbn [sjumps flat_map sjumps1]. apply app_nil_r. Qed.

(** the clause the character selects, or the default: where its code is, and that it does what the machine does with
    the expression it runs there *)
Lemma switch_select n nf cs d ko m res ch : SoundE n -> forall l clauses l0 cd l2 (lld : bool),
  forallb (fun kc : list rune * expr => deep nf (snd kc)) cs = true -> deep nf d = true ->
  scases_emit (semit nf) cs ko l = (clauses, l0) -> semit nf d ko false false l0 = (cd, l2, lld) -> ko < l ->
  match find_case_keys cs ch with
  | Some (keys, e) => run n e true (1 <? length keys) m
  | None => run n d false false m
  end = Some res ->
  exists la c1 lb (ll1 : bool),
    (match find_scase clauses ch with Some b0 => b0 | None => cd ++ (if lld then [SBrk] else []) end) = c1 ++ (if ll1 then [SBrk] else []) /\
    does ko la c1 lb m res /\ l <= la /\ lb <= l2 /\
    forall j, In j (sjumps c1) -> In j (sjumps [SSwitch clauses (cd ++ if lld then [SBrk] else [])]).
Proof.
  intros IH. induction cs as [|[keys b] cs IHcs]; intros l clauses l0 cd l2 lld Hdc Hdd Ec Ed Hko R; cbn [scases_emit] in Ec;
    pose proof (proj1 (semit_rng Ed)) as L2.
  - inv Ec. exists l0, cd, l2, lld. split; [reflexivity|]. split; [exact (SoundE_does IH Hdd Ed Hko R)|].
    split; [apply le_n|]. split; [apply le_n|].
    intros j Hj. rewrite sjumps_switch, sjumps_app. apply in_or_app. right. apply in_or_app. left. exact Hj.
  - destruct (semit nf b ko true _ l) as [[c0 la] ll0] eqn:E0. destruct (scases_emit (semit nf) cs ko la) as [rest l3] eqn:E1. inv Ec.
    cbn [forallb snd] in Hdc. apply andb_true_iff in Hdc. destruct Hdc as [Hdb Hdcs].
    pose proof (proj1 (semit_rng E0)) as L0. pose proof (cases_rng E1) as L1.
    cbn [find_case_keys find_scase] in R |- *. destruct (existsb (Z.eqb ch) keys).
    + exists l, c0, la, ll0. split; [reflexivity|]. split; [exact (SoundE_does IH Hdb E0 Hko R)|].
      split; [apply le_n|]. split; [exact (Nat.le_trans _ _ _ L1 L2)|].
      intros j Hj. rewrite sjumps_switch. cbn [flat_map snd]. rewrite sjumps_app. do 3 (apply in_or_app; left). exact Hj.
    + destruct (IHcs _ _ _ _ _ _ Hdcs Hdd E1 Ed (Nat.lt_le_trans _ _ _ Hko L0) R) as (la1 & c1 & lb & ll1 & Hbody & D1 & La & Lb & Hj).
      exists la1, c1, lb, ll1. split; [exact Hbody|]. split; [exact D1|]. split; [exact (Nat.le_trans _ _ _ L0 La)|]. split; [exact Lb|].
      intros j H. apply Hj in H. rewrite sjumps_switch in *. cbn [flat_map]. rewrite <- app_assoc. apply in_or_app. right. exact H.
Qed.

Lemma switch_sound n : SoundE n -> forall nf cs d ko l clauses l0 cd l2 lld,
  forallb (fun kc : list rune * expr => deep nf (snd kc)) cs = true -> deep nf d = true ->
  scases_emit (semit nf) cs ko (S l) = (clauses, l0) -> semit nf d ko false false l0 = (cd, l2, lld) -> ko < l ->
  forall m res, run (S n) (ESwitch cs d) false false m = Some res ->
  forall c post env pf,
    jumps_used [SSwitch clauses (cd ++ if lld then [SBrk] else [])] ->
    sim c ([SBlock [SSwitch clauses (cd ++ if lld then [SBrk] else [])]] ++ slbl_if used l) post ko l l2 (mkx m env pf) res.
Proof.
  intros IH nf cs d ko l clauses l0 cd l2 lld Hdc Hdd Ec Ed Hko m res R c post env pf Hu. apply sim_skip.
  set (sw := SSwitch clauses (cd ++ if lld then [SBrk] else [])) in *.
  cbn [run_f] in R. destruct (rd buf m) as [ch|] eqn:Erd.
  2: { inv R. apply block_crash, xs_crash, xi_switch_crash, Erd. }
  destruct (switch_select n nf cs d ko m res ch IH _ _ _ _ _ _ Hdc Hdd Ec Ed (Nat.lt_lt_succ_r _ _ Hko) R) as (la & c1 & lb & ll1 & Hbody & [(A1 & A2) D1] & La & Lb & Hj).
  pose proof (fun out H => xi_switch buf penv o fn clauses (cd ++ if lld then [SBrk] else []) (mkx m env pf) ch out Erd H) as Hsw.
  rewrite Hbody in Hsw. fold sw in Hsw, Hj.
  (* the clause is a list of its own: a jump to ko leaves it, a break ends the switch *)
  set (bd := c1 ++ if ll1 then [SBrk] else []) in *.
  assert (Hcb : ctx bd [] c1 (if ll1 then [SBrk] else []) la lb) by (split; [reflexivity|intros j _; split; [intros []|destruct ll1; intros []]]).
  pose proof (D1 bd _ _ env pf Hcb (fun j H => Hu j (Hj j H))) as S1.
  destruct res as [|[|] m1]; cbn [sim app] in *.
  - apply block_crash, xs_crash. exact (Hsw _ S1).
  - destruct S1 as (e' & pf' & F & K). exists e', pf'. split; [exact (frame_weaken _ _ _ _ _ _ (Nat.lt_le_incl _ _ La) Lb F)|]. intros out H.
    eapply block_fall; [|exact H]. eapply xs_fall; [|apply xs_nil].
    destruct ll1; [exact (Hsw _ (K _ (xs_brk _ _ _ _ _ _ _ _ _ (xi_brk _ _ _ _ _))))|exact (Hsw _ (K _ (xs_nil _ _ _ _ _ _)))].
  - destruct S1 as (J & e' & pf' & F & K). split; [exact (jumps_cons_block _ _ _ (Hj _ J))|].
    exists e', pf'. split; [exact (frame_weaken _ _ _ _ _ _ (Nat.lt_le_incl _ _ La) Lb F)|]. intros out H.
    assert (Hko_bd : ~ In ko (toplbls bd)).
    { clear - A2 Hko La. unfold bd. rewrite toplbls_app, in_app_iff. intros [X|X]; [apply A2 in X; lia|destruct ll1; destruct X]. }
    eapply block_goto; [|exact H]. eapply xs_goto_out; [exact (Hsw _ (K _ (jump_out bd ko _ Hko_bd)))|reflexivity].
Qed.

(** a name the emitter meets is compiled in place exactly where the machine runs it in place, with a body the fuel
    covers; where it is called, the rule exists and has a function *)
Lemma deep_name nf r : deep (S nf) (EName r) = true ->
  inl r = o_inline o r /\
  if o_inline o r then rdeep nf r = true else callable r = true /\ exists b, nth_error g r = Some b /\ b <> RNil.
Proof.
  cbn [SEmit.deep]. unfold SEmit.rdeep. intros Hd. destruct (nth_error g r) as [[b|k|]|]; try discriminate;
    apply andb_prop in Hd; destruct Hd as [Hi Hd]; apply eqb_prop in Hi; (split; [exact Hi|]);
    destruct (o_inline o r); try exact Hd; (split; [exact Hd|eexists; split; [reflexivity|discriminate]]).
Qed.

Lemma ctx_top c pre ce post l l1 j : ctx c pre ce post l l1 -> l <= j < l1 -> ~ In j (toplbls pre).
Proof. intros [_ H] Hj. apply (H j Hj). Qed.

Theorem sound_step n : SoundLe n -> calls_ok n -> SoundE (S n).
Proof.
  intros IHle Hcalls. pose proof (IHle n (le_n _)) as IH.
  intros nf e ko pd mk l ce l1 ll Hd E Hko m res R. split; [exact (semit_rng E)|]. intros c pre post env pf Hc Hu.
  destruct nf as [|nf]; [discriminate|].
  destruct e as [|ch|lo hi|r|k|k|k| |es|es|e1|e1|e1|e1|e1|e1|cs d]; cbn [SEmit.semit SEmit.deep] in E, Hd; cbn [run_f] in R.
  - (* . *)
    destruct pd; inv E; inv R; [apply sim_nil|]. exact (sim_cond _ _ _ _ _ _ _ _ _ (xi_dot buf penv o fn ko (mkx m env pf))).
  - (* 'c' *)
    destruct (pd && negb mk)%bool; inv E; inv R.
    + exact (sim_fall _ _ _ _ _ _ _ _ _ _ (xi_inc buf penv o fn (mkx m env pf))).
    + exact (sim_test _ _ _ _ _ _ _ _ _ (xi_char buf penv o fn ch ko (mkx m env pf))).
  - (* [lo-hi] *)
    destruct pd; inv E; inv R.
    + exact (sim_fall _ _ _ _ _ _ _ _ _ _ (xi_inc buf penv o fn (mkx m env pf))).
    + exact (sim_test _ _ _ _ _ _ _ _ _ (xi_range buf penv o fn lo hi ko (mkx m env pf))).
  - (* a rule: compiled in place, or called *)
    destruct (deep_name nf r Hd) as [Hi Hr]. rewrite Hi in E. destruct (o_inline o r) eqn:Einl.
    + destruct (sipush (semit nf) r ko pd mk l) as [[c0 l0] ll0] eqn:Eip. inv E.
      exact (ipush_sound n IH _ _ _ _ _ _ _ _ _ Hr Eip Hko _ _ R c post env pf Hu).
    + destruct Hr as [Hcl Hex]. unfold call_run in R. destruct (o_asu o r); inv E.
      * destruct (rule_fn g o (run n) r m) as [r1|] eqn:Rf; [|discriminate].
        pose proof (xi_callasu buf penv o fn r (mkx m env pf) r1 (Hcalls _ _ _ Einl Hcl Hex Rf)) as X.
        destruct r1 as [|b1 m1]; inv R; [apply xs_crash, X|exact (sim_fall _ _ _ _ _ _ _ _ _ _ X)].
      * exact (sim_cond _ _ _ _ _ _ _ _ _ (xi_call buf penv o fn r ko (mkx m env pf) res (Hcalls _ _ _ Einl Hcl Hex R))).
  - (* &{..} *)
    inv E. inv R. pose proof (xi_predtest buf penv o fn ko (mkx m env (penv k (pos m)))) as X. cbn [xpf] in X.
    destruct (penv k (pos m)) eqn:Ep; cbn [sim app].
    + exists env, true. split; [apply frame_refl|]. intros out. apply block_fall.
      eapply xs_fall; [apply xi_predset|]. cbn [xm setpf]. rewrite Ep. eapply xs_fall; [exact X|apply xs_nil].
    + split; [left; reflexivity|]. exists env, false. split; [apply frame_refl|]. intros out. apply block_goto.
      eapply xs_fall; [apply xi_predset|]. cbn [xm setpf]. rewrite Ep. eapply xs_goto_out; [exact X|reflexivity].
  - (* !{..} *)
    inv E. inv R. exact (sim_fall _ _ _ _ _ _ _ _ _ _ (xi_state buf penv o fn k (mkx m env pf))).
  - inv E. inv R. apply sim_nil.
  - inv E. inv R. apply sim_nil.
  - (* sequence *)
    eapply (seq_sound n IH); eassumption.
  - (* alternation *)
    assert (Hne : es <> []) by (intros ->; discriminate Hd).
    assert (Hd' : forallb (deep nf) es = true) by (destruct es; [congruence|exact Hd]).
    destruct (salt_emit used (semit nf) es ko l (S l)) as [calt la] eqn:Ea. inv E.
    exact (choice_sound n IH nf es ko l calt l1 Hd' Hne Ea Hko m res R c pre post env pf Hc Hu).
  - (* & *)
    destruct (semit nf e1 ko false false (S l)) as [[c1 la] ll1] eqn:E1. inv E.
    destruct (run n e1 false false m) as [r1|] eqn:R1; [|discriminate].
    pose proof (wrap_sound (SoundE_does IH Hd E1 (Nat.lt_lt_succ_r _ _ Hko) R1) Hko (SSave l) (SRestore l) (pos m, tix m)
                  (fun m' v => restore (fst v) (snd v) m') env pf (xi_save _ _ _ _ _ _) eq_refl (xi_restore _ _ _ _ l) eq_refl Hu c post) as S1.
    destruct r1 as [|[|] m1]; inv R; exact S1.
  - (* ! *)
    destruct (semit nf e1 l false false (S l)) as [[c1 la] ll1] eqn:E1. inv E.
    destruct (run n e1 false false m) as [r1|] eqn:R1; [|discriminate].
    pose proof (catch_sound ko (SoundE_does IH Hd E1 (le_n _) R1) (le_n _) (Nat.lt_lt_succ_r _ _ Hko) (Nat.lt_neq _ _ Hko) Hu c post env pf) as S1.
    destruct r1 as [|[|] m1]; inv R; exact S1.
  - (* ? *)
    destruct (semit nf e1 l false false (S (S l))) as [[c1 la] ll1] eqn:E1. inv E.
    destruct (run n e1 false false m) as [r1|] eqn:R1; [|discriminate].
    pose proof (proj1 (semit_rng E1)) as A1.
    pose proof (proj1 (jumps_used_app [SBlock (loop_body (S l) l c1)] _ Hu)) as Hub.
    pose proof (catch_sound (S l) (SoundE_does IH Hd E1 (le_S _ _ (le_n _)) R1) (le_S _ _ (le_n _)) (le_n _) (Nat.neq_succ_diag_l l) Hub
                  c (slbl_if used (S l) ++ post) env pf) as S1.
    apply (sim_label _ _ _ _ ko) in S1; [|intros J; exact (ctx_label _ _ [SBlock _] _ _ _ _ Hc (conj (le_S _ _ (le_n _)) A1) eq_refl (Hub _ J))].
    destruct r1 as [|[|] m1]; inv R; exact S1.
  - (* * *)
    assert (R' : run (S n) (EStar e1) false false m = Some res) by exact R.
    destruct (semit nf e1 (S l) false false (S (S l))) as [[c2 lb] ll2] eqn:E1. inv E.
    pose proof (proj1 (semit_rng E1)) as A1. destruct Hc as [Ec Hcl].
    exact (star_sound n _ l _ _ _ _ (SoundLe_upto _ _ _ _ _ _ _ _ IHle Hd E1 (le_n _)) (le_n _) (le_n _) _ _ _ (le_n _) R' c pre post ko env pf Ec
             (proj1 (Hcl l (conj (le_n _) (Nat.lt_le_trans _ _ _ (le_S _ _ (le_n _)) A1)))) (proj2 (jumps_used_app _ _ Hu))).
  - (* + : e, then e* *)
    destruct (semit nf e1 ko false false (S (S l))) as [[c1 la] ll1] eqn:E1.
    destruct (semit nf e1 (S l) false false la) as [[c2 lb] ll2] eqn:E2. inv E.
    destruct (semit_rng E1) as (A1 & A2). pose proof (proj1 (semit_rng E2)) as B1.
    fold (loop_body l (S l) c2) in *. set (star := slbl_if used l ++ [SBlock (loop_body l (S l) c2)]) in *.
    destruct (jumps_used_app _ _ Hu) as [Hu1 Hus]. apply jumps_used_app in Hus as [_ Hus].
    destruct Hc as [Ec Hcl].
    assert (Hc1 : ctx c pre c1 (star ++ post) (S (S l)) la).
    { split; [rewrite Ec, <- app_assoc; reflexivity|]. intros j Hj. split; [apply (Hcl j); lia|].
      unfold star. rewrite !toplbls_app, !in_app_iff. intros [[X|[]]|X]; [apply toplbls_lbl_if in X; lia|exact (proj2 (Hcl j ltac:(lia)) X)]. }
    destruct (run n e1 false false m) as [r1|] eqn:R1; [|discriminate].
    pose proof (proj2 (SoundE_does IH Hd E1 (Nat.lt_lt_succ_r _ _ (Nat.lt_lt_succ_r _ _ Hko)) R1) _ _ _ env pf Hc1 Hu1) as S0.
    apply (sim_weaken _ _ _ _ _ _ l l1 _ _ (le_S _ _ (le_S _ _ (le_n _))) B1) in S0. apply (sim_seq S0).
    destruct r1 as [|[|] m1]; [inv R; reflexivity| |inv R; reflexivity]. intros e1' pf1 _.
    apply (star_sound n _ l _ _ _ _ (SoundLe_upto _ _ _ _ _ _ _ _ IHle Hd E2 (Nat.lt_le_trans _ _ _ (le_n _) A1)) (le_n _) (Nat.lt_le_trans _ _ _ (le_n _) A1)
             n _ _ (le_S _ _ (le_n _)) R c (pre ++ c1)); [| |exact Hus].
    + rewrite Ec, <- !app_assoc. reflexivity.
    + rewrite toplbls_app, in_app_iff. intros [X|X]; [exact (proj1 (Hcl l ltac:(lia)) X)|apply A2 in X; lia].
  - (* < > *)
    destruct (semit nf e1 ko pd mk (S l)) as [[c1 la] ll1] eqn:E1. inv E.
    destruct (run n e1 pd mk m) as [r1|] eqn:R1; [|discriminate].
    pose proof (wrap_sound (SoundE_does IH Hd E1 (Nat.lt_lt_succ_r _ _ Hko) R1) Hko (SSaveP l) (if o_ast o then SAddRule ptx l else SCapture l)
                  (pos m, snd (env l)) (fun m' v => if o_ast o then add o ptx (fst v) m' else set_text (fst v) (pos m') m') env pf
                  (xi_savep _ _ _ _ _ _) eq_refl
                  ltac:(intros x; destruct (o_ast o); [apply xi_addrule|apply xi_capture])
                  ltac:(destruct (o_ast o); reflexivity) Hu c post) as S1.
    destruct r1 as [|[|] m1]; inv R; exact S1.
  - (* switch *)
    apply andb_true_iff in Hd. destruct Hd as [Hdc Hdd].
    destruct (scases_emit (semit nf) cs ko (S l)) as [clauses l0] eqn:Ecs.
    destruct (semit nf d ko false false l0) as [[cd l2] lld] eqn:Ed. inv E.
    exact (switch_sound n IH nf cs d ko l clauses l0 cd l1 lld Hdc Hdd Ecs Ed Hko m res R c post env pf (jumps_used_block _ _ Hu)).
Qed.

Notation srule := (SEmit.srule_emit g ptx (o_ast o) inl (o_asu o) used).

Lemma fn_sound n : SoundE n -> forall nf r ko body lb,
  srule nf r ko = (body, lb) -> rdeep nf r = true -> jumps_used body ->
  forall m res, rule_fn g o (run n) r m = Some res ->
    xs body body (mkx m env0 false) (match res with Crash => OCrash | Ret b m' => ORet b m' end).
Proof.
  intros IH nf r ko body lb E Hd Hu m res R.
  unfold srule_emit in E. destruct (sipush (semit nf) r ko false false (S ko)) as [[cip l1] llp] eqn:Eip. inv E.
  set (mc := if o_ast o then [SMemoCheck r] else []).
  set (sv := if (o_ast o || used ko)%bool then [SSave ko] else []).
  set (mt := if o_ast o then [SMemo r ko true] else []).
  set (tlk := if used ko then [SLbl ko] ++ (if o_ast o then [SMemo r ko false] else []) ++ [SRestore ko; SReturn false] else []).
  set (body := mc ++ sv ++ cip ++ mt ++ [SReturn true] ++ tlk) in *.
  assert (Htop : toplbls cip = []).
  { unfold sipush_emit in Eip. destruct (nth_error g r) as [[b|k|]|]; [destruct (semit nf b ko false false (S (S ko))) as [[cb lb0] llb]| | |]; inv Eip; reflexivity. }
  unfold rule_fn in R.
  (* the memo table *)
  assert (Hmc : forall o', (match (if o_ast o then lookup (memo m) r (pos m) else None) with
                           | Some me => o' = (match memoized me m with Crash => OCrash | Ret b m' => ORet b m' end)
                           | None => xs body (sv ++ cip ++ mt ++ [SReturn true] ++ tlk) (mkx m env0 false) o' end) ->
                          xs body body (mkx m env0 false) o').
  { intros o' H. unfold body at 2, mc. destruct (o_ast o) eqn:East; cbn [app]; [|exact H].
    pose proof (xi_memocheck buf penv o fn r (mkx m env0 false)) as X. cbn [xm] in X.
    destruct (lookup (memo m) r (pos m)) as [me|].
    - subst o'. destruct (memoized me m) as [|b0 m0]; [apply xs_crash; exact X|apply xs_ret; exact X].
    - eapply xs_fall; [exact X|exact H]. }
  apply Hmc. destruct (if o_ast o then lookup (memo m) r (pos m) else None) as [me|] eqn:Elk.
  { inv R. reflexivity. }
  (* save, body, memoize, return *)
  set (x1 := if (o_ast o || used ko)%bool then setenv (mkx m env0 false) ko (pos m, tix m) else mkx m env0 false).
  assert (Hsv : forall o', xs body (cip ++ mt ++ [SReturn true] ++ tlk) x1 o' -> xs body (sv ++ cip ++ mt ++ [SReturn true] ++ tlk) (mkx m env0 false) o').
  { intros o' H. unfold sv, x1 in *. destruct (o_ast o || used ko)%bool; cbn [app]; [eapply xs_fall; [apply xi_save|exact H]|exact H]. }
  apply Hsv.
  pose proof (proj1 (jumps_used_app cip _ (proj2 (jumps_used_app sv _ (proj2 (jumps_used_app mc _ Hu)))))) as Hu1.
  destruct (ipush_run g o (run n) r false false m) as [r1|] eqn:Rip; [|discriminate].
  pose proof (ipush_sound n IH nf r ko false false (S ko) cip lb llp Hd Eip (le_n _) m r1 Rip body (mt ++ [SReturn true] ++ tlk) (xenv x1) (xpf x1) Hu1) as S1.
  replace (mkx m (xenv x1) (xpf x1)) with x1 in S1 by (unfold x1; destruct (o_ast o || used ko)%bool; reflexivity).
  destruct r1 as [|[|] m1]; cbn [sim] in S1.
  - inv R. exact S1.
  - inv R. destruct S1 as (e1 & pf1 & F1 & K1). apply K1.
    unfold mt. destruct (o_ast o) eqn:East; cbn [app].
    + eapply xs_fall; [apply xi_memo|]. apply xs_ret. cbn [xm setm xenv].
      assert (He : e1 ko = (pos m, tix m)).
      { rewrite F1 by lia. unfold x1. cbn [orb setenv xenv]. rewrite Nat.eqb_refl. reflexivity. }
      rewrite He. cbn [fst snd]. apply xi_return.
    + apply xs_ret. apply xi_return.
  - inv R. destruct S1 as (J & e1 & pf1 & F1 & K1). apply K1.
    assert (Hk : used ko = true) by (apply Hu1; exact J).
    assert (He : e1 ko = (pos m, tix m)).
    { rewrite F1 by lia. unfold x1. rewrite Hk, orb_true_r. cbn [setenv xenv]. rewrite Nat.eqb_refl. reflexivity. }
    eapply (jump_at body (mc ++ sv ++ cip ++ mt ++ [SReturn true])).
    + unfold mc, sv, mt. rewrite !toplbls_app, Htop, Hk, orb_true_r. destruct (o_ast o); intros [].
    + unfold body, tlk. rewrite Hk. rewrite <- !app_assoc. reflexivity.
    + destruct (o_ast o) eqn:East; cbn [app].
      * eapply xs_fall; [apply xi_memo|]. eapply xs_fall; [apply xi_restore|]. apply xs_ret.
        cbn [xm setm xenv]. rewrite He. cbn [fst snd]. apply xi_return.
      * eapply xs_fall; [apply xi_restore|]. apply xs_ret. cbn [xm setm xenv]. rewrite He. cbn [fst snd]. apply xi_return.
Qed.

Definition table_ok (nf : nat) : Prop :=
  forall r, o_inline o r = false -> callable r = true -> (exists b, nth_error g r = Some b /\ b <> RNil) ->
    exists ko body lb, fn r = Some body /\ srule nf r ko = (body, lb) /\ rdeep nf r = true /\
                       (forall j, In j (sjumps body) -> used j = true).

Theorem program_sound nf : table_ok nf -> forall n, SoundLe n /\ calls_ok n.
Proof.
  intros Ht.
  assert (Hcall : forall n, SoundE n -> calls_ok n).
  { intros n IH r m res Hinl Hcl Hex R. destruct (Ht r Hinl Hcl Hex) as (ko & body & lb & Ef & Es & Hd & Hu).
    pose proof (fn_sound n IH nf r ko body lb Es Hd Hu m res R) as X.
    destruct res as [|b m']; [eapply xcall_crash; eassumption|eapply xcall_ret; eassumption]. }
  induction n as [|n [IHle IHc]].
  - assert (E0 : SoundE 0) by (intros nf0 e ko pd mk l ce l1 ll _ _ _ m res R; discriminate R).
    split; [intros k Hk; replace k with 0 by lia; exact E0|apply Hcall; exact E0].
  - pose proof (sound_step n IHle IHc) as ES. split; [|apply Hcall; exact ES].
    intros k Hk. destruct (Nat.eq_dec k (S n)) as [->|N]; [exact ES|apply IHle; lia].
Qed.

(** the parser entry: calling the function of rule r does what the machine's rule function does *)
Corollary rule_function_sound nf : table_ok nf -> forall n r m res,
  o_inline o r = false -> callable r = true -> (exists b, nth_error g r = Some b /\ b <> RNil) ->
  rule_fn g o (run n) r m = Some res -> xcall r m res.
Proof. intros Ht n r m res Hinl Hcl Hex R. exact (proj2 (program_sound nf Ht n) r m res Hinl Hcl Hex R). Qed.

End Sound.
