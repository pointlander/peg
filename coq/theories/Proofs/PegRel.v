(** Compositional reading of the reference semantics: "e succeeds from p to p' with forest f" ([ok e p p' f])
    and "e fails at p" ([ko e p]) as propositions (fuel existentially quantified), with one introduction rule
    per construct and result.  [ok e p p' f] is [yields e p (Succ p' f)] and [ko e p] is [yields e p Fail] of
    Proofs/PegInv.v, which reads each construct as one equivalence; the rules here are those equivalences from
    right to left, one result at a time, and [T] goes on to the actions Execute() runs over the forest, which
    Reader/ needs for the builder calls.
    Used to reason about a fixed grammar (peg.peg's own tree) on a symbolic input: [At p s] names what is left
    of the input at an offset, and the window test ([dead], [deads], [skip_dead]) decides from the bounds known
    on the next characters that an expression fails, so that a choice is entered behind its dead alternatives.
    After the relations, section Success gives the rule induction on successful evaluation ([ok_ind]), one
    premise per shape of expression, for any grammar. *)
From PegV Require Import Proofs.PegInv Base.Tac Base.ListX Spec.Syntax Spec.Peg Spec.Tokens Proofs.PegFacts Proofs.RuntimeProofs.

Section Rel.
Variable g : grammar.
Variable ptx : nat.
Variable buf : list rune.
Variable penv : nat -> nat -> bool.

Notation ev := (peg_ev g ptx buf penv).
Notation yields := (yields g ptx buf penv).

Definition ok (e : expr) (p p' : nat) (f : list dt) : Prop := exists n evs, ev n e p = Some (Succ p' f, evs).
Definition ko (e : expr) (p : nat) : Prop := exists n evs, ev n e p = Some (Fail, evs).
Definition oks (es : list expr) (p p' : nat) (f : list dt) : Prop := exists n evs, seq_ev (ev n) es p = Some (Succ p' f, evs).
Definition kos (es : list expr) (p : nat) : Prop := exists n evs, seq_ev (ev n) es p = Some (Fail, evs).
Definition oka (es : list expr) (p p' : nat) (f : list dt) : Prop := exists n evs, alt_ev (ev n) es p = Some (Succ p' f, evs).
Definition koa (es : list expr) (p : nat) : Prop := exists n evs, alt_ev (ev n) es p = Some (Fail, evs).

Lemma up n m e p x : ev n e p = Some x -> ev (Nat.max n m) e p = Some x.
Proof. apply peg_ev_mono. lia. Qed.
Lemma ok_char c p : nth_error buf p = Some c -> ok (EChar c) p (S p) [].
Proof. intros H. exists 1, []. cbn. unfold term. rewrite H, Z.eqb_refl. reflexivity. Qed.
Lemma ko_char c p : (forall c', nth_error buf p = Some c' -> c' <> c) -> ko (EChar c) p.
Proof.
  intros H. exists 1, []. cbn. unfold term. destruct (nth_error buf p) as [c'|]; [|reflexivity].
  destruct (Z.eqb_spec c c'); [|reflexivity]. exfalso. apply (H c'); congruence.
Qed.
Lemma ok_dot c p : nth_error buf p = Some c -> ok EDot p (S p) [].
Proof. intros H. exists 1, []. cbn. unfold term. rewrite H. reflexivity. Qed.
Lemma ko_dot p : nth_error buf p = None -> ko EDot p.
Proof. intros H. exists 1, []. cbn. unfold term. rewrite H. reflexivity. Qed.
Lemma ok_range lo hi c p : nth_error buf p = Some c -> in_range lo hi c = true -> ok (ERange lo hi) p (S p) [].
Proof. intros H R. exists 1, []. cbn. unfold term. rewrite H, R. reflexivity. Qed.
Lemma ko_range lo hi p : (forall c, nth_error buf p = Some c -> in_range lo hi c = false) -> ko (ERange lo hi) p.
Proof.
  intros H. exists 1, []. cbn. unfold term. destruct (nth_error buf p) as [c|]; [|reflexivity].
  rewrite (H c eq_refl). reflexivity.
Qed.
Lemma ok_nil p : ok ENil p p [].
Proof. exists 1, []. reflexivity. Qed.

(** What a sequence or a choice yields, by the list of its items: [oks] and [kos], [oka] and [koa] are these at a
    success and at [Fail].  [ESeq] and [EAlt] run their list on one unit of fuel less. *)
Definition seqs (es : list expr) (p : nat) (r : res) : Prop := exists n evs, seq_ev (ev n) es p = Some (r, evs).
Definition alts (es : list expr) (p : nat) (r : res) : Prop := exists n evs, alt_ev (ev n) es p = Some (r, evs).
Lemma seqs_yields es p r : seqs es p r <-> yields (ESeq es) p r.
Proof.
  split; intros (n & evs & H); [exists (S n), evs; exact H|]. destruct n as [|n]; [discriminate|]. exists n, evs. exact H.
Qed.
Lemma alts_yields es p r : alts es p r <-> yields (EAlt es) p r.
Proof.
  split; intros (n & evs & H); [exists (S n), evs; exact H|]. destruct n as [|n]; [discriminate|]. exists n, evs. exact H.
Qed.

Lemma then_stop E A B r0 p : seqlike E A B r0 -> ko A p -> yields E p (r0 p).
Proof. intros S K. apply (seqlike_shape _ _ _ _ _ _ _ _ S). left. split; [exact K|reflexivity]. Qed.
Lemma then_go E A B r0 p p1 f1 r : seqlike E A B r0 -> ok A p p1 f1 -> yields B p1 r -> yields E p (join f1 r).
Proof. intros S O H. apply (seqlike_shape _ _ _ _ _ _ _ _ S). right. exists p1, f1, r. repeat split; assumption. Qed.

Lemma oks_nil p : oks [] p p [].
Proof. exists 0, []. reflexivity. Qed.
Lemma seqs_cons e es p p1 f1 r : ok e p p1 f1 -> seqs es p1 r -> seqs (e :: es) p (join f1 r).
Proof. intros O H. apply seqs_yields. apply (then_go _ _ _ _ _ _ _ _ (sl_seq e es) O). apply seqs_yields. exact H. Qed.
Lemma oks_cons e es p p1 p2 f1 f2 : ok e p p1 f1 -> oks es p1 p2 f2 -> oks (e :: es) p p2 (f1 ++ f2).
Proof. exact (seqs_cons e es p p1 f1 (Succ p2 f2)). Qed.
Lemma kos_tail e es p p1 f1 : ok e p p1 f1 -> kos es p1 -> kos (e :: es) p.
Proof. exact (seqs_cons e es p p1 f1 Fail). Qed.
Lemma kos_head e es p : ko e p -> kos (e :: es) p.
Proof. intros K. apply seqs_yields. exact (then_stop _ _ _ _ _ (sl_seq e es) K). Qed.

Lemma seq_ev_app (f : expr -> nat -> option out) l1 : forall l2 p p1 f1 v1 r v2,
  seq_ev f l1 p = Some (Succ p1 f1, v1) -> seq_ev f l2 p1 = Some (r, v2) ->
  seq_ev f (l1 ++ l2) p = Some (join f1 r, v1 ++ v2).
Proof.
  induction l1 as [|e l1 IH]; intros l2 p p1 f1 v1 r v2 H1 H2; cbn [seq_ev app] in *.
  - inv H1. destruct r; exact H2.
  - destruct (f e p) as [[[|q fq] vq]|]; try discriminate.
    destruct (seq_ev f l1 q) as [[[|q' fq'] vq']|] eqn:E; try discriminate. inv H1.
    rewrite (IH l2 _ _ _ _ _ _ E H2). destruct r; cbn [join]; rewrite !app_assoc; reflexivity.
Qed.
Lemma seqs_app l1 l2 p p1 f1 r : oks l1 p p1 f1 -> seqs l2 p1 r -> seqs (l1 ++ l2) p (join f1 r).
Proof.
  assert (ups : forall n m es q x, n <= m -> seq_ev (ev n) es q = Some x -> seq_ev (ev m) es q = Some x).
  { intros n m es q x L. apply seq_ev_mono. intros e q' y. apply peg_ev_mono. exact L. }
  intros (n1 & v1 & H1) (n2 & v2 & H2). exists (Nat.max n1 n2), (v1 ++ v2).
  exact (seq_ev_app _ _ _ _ _ _ _ _ _ (ups _ _ _ _ _ (Nat.le_max_l n1 n2) H1) (ups _ _ _ _ _ (Nat.le_max_r n1 n2) H2)).
Qed.
Lemma oks_app l1 l2 p p1 p2 f1 f2 : oks l1 p p1 f1 -> oks l2 p1 p2 f2 -> oks (l1 ++ l2) p p2 (f1 ++ f2).
Proof. exact (seqs_app l1 l2 p p1 f1 (Succ p2 f2)). Qed.
Lemma kos_app l1 l2 p p1 f1 : oks l1 p p1 f1 -> kos l2 p1 -> kos (l1 ++ l2) p.
Proof. exact (seqs_app l1 l2 p p1 f1 Fail). Qed.
Lemma ok_seq es p p' f : oks es p p' f -> ok (ESeq es) p p' f.
Proof. apply seqs_yields. Qed.
Lemma ko_seq es p : kos es p -> ko (ESeq es) p.
Proof. apply seqs_yields. Qed.

Lemma oka_head e es p p' f : ok e p p' f -> oka (e :: es) p p' f.
Proof. intros O. apply alts_yields. apply alt_cons_yields. left. exists p', f. split; [reflexivity|exact O]. Qed.
Lemma alts_cons e es p r : ko e p -> alts es p r -> alts (e :: es) p r.
Proof. intros K H. apply alts_yields. apply alt_cons_yields. right. split; [exact K|apply alts_yields; exact H]. Qed.
Lemma oka_tail e es p p' f : ko e p -> oka es p p' f -> oka (e :: es) p p' f.
Proof. exact (alts_cons e es p (Succ p' f)). Qed.
Lemma koa_nil p : koa [] p.
Proof. exists 0, []. reflexivity. Qed.
Lemma koa_cons e es p : ko e p -> koa es p -> koa (e :: es) p.
Proof. exact (alts_cons e es p Fail). Qed.
Lemma ok_alt es p p' f : oka es p p' f -> ok (EAlt es) p p' f.
Proof. apply alts_yields. Qed.
Lemma ko_alt es p : koa es p -> ko (EAlt es) p.
Proof. apply alts_yields. Qed.

Lemma name_go r b p x : nth_error g r = Some (RBody b) -> yields b p x ->
  yields (EName r) p match x with Fail => Fail | Succ p' f => Succ p' [Node r p p' f] end.
Proof. intros Hr H. apply name_yields. rewrite Hr. exists x. split; [exact H|reflexivity]. Qed.
Lemma ok_name r b p p' f : nth_error g r = Some (RBody b) -> ok b p p' f -> ok (EName r) p p' [Node r p p' f].
Proof. exact (name_go r b p (Succ p' f)). Qed.
Lemma ko_name r b p : nth_error g r = Some (RBody b) -> ko b p -> ko (EName r) p.
Proof. exact (name_go r b p Fail). Qed.
Lemma ok_act r k p : nth_error g r = Some (RAct k) -> ok (EName r) p p [Node r p p []].
Proof. intros Hr. apply name_yields. rewrite Hr. reflexivity. Qed.

Lemma unary_go K h e p r : unary ptx K h -> yields e p r -> yields (K e) p (h p r).
Proof. intros U H. apply (unary_yields _ _ _ _ _ _ U). exists r. split; [exact H|reflexivity]. Qed.
Lemma ok_and e p p' f : ok e p p' f -> ok (EAnd e) p p [].
Proof. exact (unary_go _ _ e p (Succ p' f) (u_and ptx)). Qed.
Lemma ko_and e p : ko e p -> ko (EAnd e) p.
Proof. exact (unary_go _ _ e p Fail (u_and ptx)). Qed.
Lemma ok_not e p : ko e p -> ok (ENot e) p p [].
Proof. exact (unary_go _ _ e p Fail (u_not ptx)). Qed.
Lemma ko_not e p p' f : ok e p p' f -> ko (ENot e) p.
Proof. exact (unary_go _ _ e p (Succ p' f) (u_not ptx)). Qed.
Lemma ok_query_some e p p' f : ok e p p' f -> ok (EQuery e) p p' f.
Proof. exact (unary_go _ _ e p (Succ p' f) (u_query ptx)). Qed.
Lemma ok_query_none e p : ko e p -> ok (EQuery e) p p [].
Proof. exact (unary_go _ _ e p Fail (u_query ptx)). Qed.
Lemma ok_push e p p' f : ok e p p' f -> ok (EPush e) p p' [Node ptx p p' f].
Proof. exact (unary_go _ _ e p (Succ p' f) (u_push ptx)). Qed.
Lemma ko_push e p : ko e p -> ko (EPush e) p.
Proof. exact (unary_go _ _ e p Fail (u_push ptx)). Qed.

Lemma ok_star_nil e p : ko e p -> ok (EStar e) p p [].
Proof. exact (then_stop _ _ _ _ p (sl_star e)). Qed.
Lemma ok_star_cons e p p1 p2 f1 f2 : ok e p p1 f1 -> ok (EStar e) p1 p2 f2 -> ok (EStar e) p p2 (f1 ++ f2).
Proof. exact (then_go _ _ _ _ p p1 f1 (Succ p2 f2) (sl_star e)). Qed.
Lemma ok_plus e p p1 p2 f1 f2 : ok e p p1 f1 -> ok (EStar e) p1 p2 f2 -> ok (EPlus e) p p2 (f1 ++ f2).
Proof. exact (then_go _ _ _ _ p p1 f1 (Succ p2 f2) (sl_plus e)). Qed.
Lemma ko_plus e p : ko e p -> ko (EPlus e) p.
Proof. exact (then_stop _ _ _ _ p (sl_plus e)). Qed.

Definition sub (t : nat * nat) : list rune := firstn (snd t - fst t) (skipn (fst t) buf).
Definition evt := (nat * list rune)%type.       (* action number, captured text *)
Definition tr (f : list dt) (txt : nat * nat) : list evt * (nat * nat) :=
  (map (fun kt : nat * (nat * nat) => (fst kt, sub (snd kt))) (fst (trace_forest g ptx f txt)), snd (trace_forest g ptx f txt)).

(** [T e p p' evs t t']: e succeeds from p to p'; Execute(), walking its derivation with text register t, runs the
    actions evs and leaves t' *)
Definition T (e : expr) (p p' : nat) (evs : list evt) (t t' : nat * nat) : Prop :=
  exists f, ok e p p' f /\ tr f t = (evs, t').
Definition Ts (es : list expr) (p p' : nat) (evs : list evt) (t t' : nat * nat) : Prop :=
  exists f, oks es p p' f /\ tr f t = (evs, t').
Definition Ta (es : list expr) (p p' : nat) (evs : list evt) (t t' : nat * nat) : Prop :=
  exists f, oka es p p' f /\ tr f t = (evs, t').

Lemma trace_forest_app f1 : forall f2 t,
  trace_forest g ptx (f1 ++ f2) t =
    (fst (trace_forest g ptx f1 t) ++ fst (trace_forest g ptx f2 (snd (trace_forest g ptx f1 t))),
     snd (trace_forest g ptx f2 (snd (trace_forest g ptx f1 t)))).
Proof.
  induction f1 as [|k f1 IH]; intros f2 t; cbn [app trace_forest fst snd].
  - destruct (trace_forest g ptx f2 t); reflexivity.
  - destruct (trace_dt g ptx k t) as [e1 t1]. rewrite IH.
    destruct (trace_forest g ptx f1 t1) as [e2 t2]. cbn [fst snd]. rewrite app_assoc. reflexivity.
Qed.

Lemma tr_nil t : tr [] t = ([], t).
Proof. reflexivity. Qed.
Lemma tr_app f1 f2 t e1 t1 e2 t2 : tr f1 t = (e1, t1) -> tr f2 t1 = (e2, t2) -> tr (f1 ++ f2) t = (e1 ++ e2, t2).
Proof.
  unfold tr. rewrite trace_forest_app. cbn [fst snd]. intros H1 H2. inv H1. inv H2. rewrite map_app. reflexivity.
Qed.
Lemma tr_node_body r b p p' f t : nth_error g r = Some (RBody b) -> r <> ptx -> tr [Node r p p' f] t = tr f t.
Proof.
  intros Hr Hp. unfold tr. cbn [trace_forest]. rewrite trace_dt_node.
  destruct (trace_forest g ptx f t) as [e1 t1]. destruct (Nat.eqb_spec r ptx); [contradiction|]. rewrite Hr.
  cbn [fst snd]. rewrite app_nil_r. reflexivity.
Qed.
Lemma tr_node_act r k p t : nth_error g r = Some (RAct k) -> r <> ptx -> tr [Node r p p []] t = ([(k, sub t)], t).
Proof.
  intros Hr Hp. unfold tr. cbn [trace_forest]. rewrite trace_dt_node. cbn [trace_forest].
  destruct (Nat.eqb_spec r ptx); [contradiction|]. rewrite Hr. reflexivity.
Qed.
Lemma tr_node_push p p' f t : tr [Node ptx p p' f] t = (fst (tr f t), (p, p')).
Proof.
  unfold tr. cbn [trace_forest]. rewrite trace_dt_node.
  destruct (trace_forest g ptx f t) as [e1 t1]. rewrite Nat.eqb_refl. cbn [fst snd]. rewrite app_nil_r. reflexivity.
Qed.

Lemma T_silent e p p' t : ok e p p' [] -> T e p p' [] t t.
Proof. intros H. exists []. split; [exact H|reflexivity]. Qed.
Lemma Ts_nil p t : Ts [] p p [] t t.
Proof. exists []. split; [apply oks_nil|reflexivity]. Qed.
Lemma Ts_cons e es p p1 p2 e1 e2 t t1 t2 : T e p p1 e1 t t1 -> Ts es p1 p2 e2 t1 t2 -> Ts (e :: es) p p2 (e1 ++ e2) t t2.
Proof. intros (f1 & O1 & H1) (f2 & O2 & H2). exists (f1 ++ f2). split; [eapply oks_cons; eassumption|eapply tr_app; eassumption]. Qed.
Lemma Ts_app l1 l2 p p1 p2 e1 e2 t t1 t2 : Ts l1 p p1 e1 t t1 -> Ts l2 p1 p2 e2 t1 t2 -> Ts (l1 ++ l2) p p2 (e1 ++ e2) t t2.
Proof. intros (f1 & O1 & H1) (f2 & O2 & H2). exists (f1 ++ f2). split; [eapply oks_app; eassumption|eapply tr_app; eassumption]. Qed.
Lemma T_seq es p p' evs t t' : Ts es p p' evs t t' -> T (ESeq es) p p' evs t t'.
Proof. intros (f & O & H). exists f. split; [apply ok_seq; exact O|exact H]. Qed.
Lemma Ta_head e es p p' evs t t' : T e p p' evs t t' -> Ta (e :: es) p p' evs t t'.
Proof. intros (f & O & H). exists f. split; [apply oka_head; exact O|exact H]. Qed.
Lemma Ta_tail e es p p' evs t t' : ko e p -> Ta es p p' evs t t' -> Ta (e :: es) p p' evs t t'.
Proof. intros K (f & O & H). exists f. split; [apply oka_tail; assumption|exact H]. Qed.
Lemma T_alt es p p' evs t t' : Ta es p p' evs t t' -> T (EAlt es) p p' evs t t'.
Proof. intros (f & O & H). exists f. split; [apply ok_alt; exact O|exact H]. Qed.
Lemma T_name r b p p' evs t t' : nth_error g r = Some (RBody b) -> r <> ptx -> T b p p' evs t t' -> T (EName r) p p' evs t t'.
Proof.
  intros Hr Hp (f & O & H). exists [Node r p p' f]. split; [eapply ok_name; eassumption|].
  rewrite (tr_node_body _ _ _ _ _ _ Hr Hp). exact H.
Qed.
Lemma T_act r k p t : nth_error g r = Some (RAct k) -> r <> ptx -> T (EName r) p p [(k, sub t)] t t.
Proof. intros Hr Hp. exists [Node r p p []]. split; [eapply ok_act; eassumption|apply tr_node_act; assumption]. Qed.
Lemma T_and e p p' f t : ok e p p' f -> T (EAnd e) p p [] t t.
Proof. intros O. apply T_silent. eapply ok_and; eassumption. Qed.
Lemma T_not e p t : ko e p -> T (ENot e) p p [] t t.
Proof. intros K. apply T_silent. apply ok_not; assumption. Qed.
Lemma T_query_some e p p' evs t t' : T e p p' evs t t' -> T (EQuery e) p p' evs t t'.
Proof. intros (f & O & H). exists f. split; [eapply ok_query_some; exact O|exact H]. Qed.
Lemma T_query_none e p t : ko e p -> T (EQuery e) p p [] t t.
Proof. intros K. apply T_silent. apply ok_query_none; assumption. Qed.
Lemma T_star_nil e p t : ko e p -> T (EStar e) p p [] t t.
Proof. intros K. apply T_silent. apply ok_star_nil; assumption. Qed.
Lemma T_star_cons e p p1 p2 e1 e2 t t1 t2 : T e p p1 e1 t t1 -> T (EStar e) p1 p2 e2 t1 t2 -> T (EStar e) p p2 (e1 ++ e2) t t2.
Proof. intros (f1 & O1 & H1) (f2 & O2 & H2). exists (f1 ++ f2). split; [eapply ok_star_cons; eassumption|eapply tr_app; eassumption]. Qed.
Lemma T_plus e p p1 p2 e1 e2 t t1 t2 : T e p p1 e1 t t1 -> T (EStar e) p1 p2 e2 t1 t2 -> T (EPlus e) p p2 (e1 ++ e2) t t2.
Proof. intros (f1 & O1 & H1) (f2 & O2 & H2). exists (f1 ++ f2). split; [eapply ok_plus; eassumption|eapply tr_app; eassumption]. Qed.
Lemma T_push e p p' evs t t' : T e p p' evs t t' -> T (EPush e) p p' evs t (p, p').
Proof.
  intros (f & O & H). exists [Node ptx p p' f]. split; [apply ok_push; exact O|].
  rewrite tr_node_push, H. reflexivity.
Qed.
Lemma T_nil p t : T ENil p p [] t t.
Proof. apply T_silent. apply ok_nil. Qed.

Lemma ok_ko_excl e p p' f : ok e p p' f -> ko e p -> False.
Proof. intros O K. discriminate (yields_det _ _ _ _ _ _ _ _ O K). Qed.

End Rel.

(** Rule induction on successful evaluation, fuel and events out of sight: one premise for each way an expression
    succeeds.  A sequence and both repetitions succeed alike - [A], then [B] from where [A] stopped -, and the four
    [unary] constructs map the result of their operand. *)

Section Success.
Variable g : grammar.
Variable ptx : nat.
Variable buf : list rune.
Variable penv : nat -> nat -> bool.
Notation ev := (peg_ev g ptx buf penv).
Notation ok := (ok g ptx buf penv).

Lemma term_succ okc p p' f evs : term buf okc p = (Succ p' f, evs) -> f = [] /\ p' = S p /\ S p <= length buf.
Proof.
  unfold term. destruct (nth_error buf p) as [c|] eqn:En; [|discriminate]. destruct (okc c); intros H; inv H.
  repeat split. apply Nat.le_succ_l. apply nth_error_Some. congruence.
Qed.
Lemma leaf_succ n e p p' f evs : leaf e = true -> ev n e p = Some (Succ p' f, evs) -> f = [].
Proof.
  intros Hl H. destruct n as [|n]; [discriminate|]. destruct e; try discriminate Hl; cbn [peg_ev] in H.
  1-3: injection H as H; exact (proj1 (term_succ _ _ _ _ _ H)).
  - destruct (penv k p); inv H; reflexivity.
  - inv H; reflexivity.
  - inv H; reflexivity.
  - inv H; reflexivity.
Qed.

Variable P : expr -> nat -> nat -> list dt -> Prop.
Hypothesis P_leaf : forall e p p', leaf e = true -> ok e p p' [] -> P e p p' [].
Hypothesis P_unary : forall K h, unary ptx K h -> forall e p r p' f,
  yields g ptx buf penv e p r -> (forall q fq, r = Succ q fq -> P e p q fq) -> h p r = Succ p' f -> P (K e) p p' f.
Hypothesis P_end : forall p, P (ESeq []) p p [].
Hypothesis P_stop : forall e p, ko g ptx buf penv e p -> P (EStar e) p p [].
Hypothesis P_then : forall E A B r0, seqlike E A B r0 -> forall p p1 f1 p2 f2,
  ok A p p1 f1 -> P A p p1 f1 -> ok B p1 p2 f2 -> P B p1 p2 f2 -> P E p p2 (f1 ++ f2).
Hypothesis P_alt : forall es x p p' f, In x es -> P x p p' f -> P (EAlt es) p p' f.
Hypothesis P_body : forall r b p p' f, nth_error g r = Some (RBody b) -> P b p p' f -> P (EName r) p p' [Node r p p' f].
Hypothesis P_act : forall r k p, nth_error g r = Some (RAct k) -> P (EName r) p p [Node r p p []].
Hypothesis P_switch : forall cs d p p' f, P (branch buf cs d p) p p' f -> P (ESwitch cs d) p p' f.

Theorem ok_ind e p p' f : ok e p p' f -> P e p p' f.
Proof.
  intros (n & evs & H). revert e p p' f evs H. induction n as [|n IH]; [discriminate|].
  assert (Hun : forall K h, unary ptx K h -> forall e p p' f evs, ev (S n) (K e) p = Some (Succ p' f, evs) -> P (K e) p p' f).
  { intros K h U e p p' f evs H.
    assert (exists r evs1, ev n e p = Some (r, evs1) /\ h p r = Succ p' f) as (r & evs1 & E & Eh).
    { destruct U; cbn [peg_ev] in H; destruct (ev n e p) as [[r evs1]|]; try discriminate; exists r, evs1;
        (split; [reflexivity|destruct r; inv H; reflexivity]). }
    apply (P_unary K h U e p r); [exists n, evs1; exact E|intros q fq ->; exact (IH _ _ _ _ _ E)|exact Eh]. }
  (* [B] runs on the fuel [m] of the case; [HB] is what is known of it there *)
  assert (Hth : forall E A B r0 m, seqlike E A B r0 -> (forall q q' fq v, ev m B q = Some (Succ q' fq, v) -> P B q q' fq) ->
            forall p p' f evs, then_ev (ev n A p) (r0 p) (ev m B) = Some (Succ p' f, evs) -> P E p p' f).
  { intros E A B r0 m SL HB p p' f evs H. unfold then_ev in H. destruct (ev n A p) as [[[|q fq] vq]|] eqn:EA; try discriminate.
    - destruct SL; inv H. apply P_stop. exists n, evs. exact EA.
    - destruct (ev m B q) as [[[|q2 f2] v2]|] eqn:EB; try discriminate. inv H.
      apply (P_then _ _ _ _ SL p q fq p' f2); [exists n, vq; exact EA|exact (IH _ _ _ _ _ EA)|exists m, v2; exact EB|exact (HB _ _ _ _ EB)]. }
  intros e p p' f evs H. destruct (leaf e) eqn:El.
  { pose proof (leaf_succ _ _ _ _ _ _ El H) as ->. apply P_leaf; [exact El|exists (S n), evs; exact H]. }
  destruct e; try discriminate El; try (eapply Hun; [constructor|exact H]); cbn [peg_ev] in H.
  - destruct (nth_error g r) as [[b|k|]|] eqn:Er; try discriminate.
    + destruct (ev n b p) as [[[|q fq] vq]|] eqn:Eb; try discriminate. inv H. exact (P_body _ _ _ _ _ Er (IH _ _ _ _ _ Eb)).
    + inv H. exact (P_act _ _ _ Er).
  - (* the rest of a sequence runs on the fuel of the whole: induction on the items *)
    clear El. revert p p' f evs H. induction es as [|y es IHes]; intros p p' f evs H; [inv H; apply P_end|].
    exact (Hth _ _ _ _ (S n) (sl_seq y es) IHes p p' f evs H).
  - destruct (alt_ev_succ _ _ _ _ _ _ H) as (y & evs' & Hin & Hy). exact (P_alt _ _ _ _ _ Hin (IH _ _ _ _ _ Hy)).
  - exact (Hth _ _ _ _ n (sl_star e) (IH (EStar e)) p p' f evs H).
  - exact (Hth _ _ _ _ n (sl_plus e) (IH (EStar e)) p p' f evs H).
  - apply P_switch. apply (IH _ _ _ _ evs). unfold branch. destruct (nth_error buf p) as [c|]; [destruct (find_case cs c)|]; exact H.
Qed.
End Success.

Lemma skipn_cons_inv {A} p : forall (l : list A) c s, skipn p l = c :: s ->
  nth_error l p = Some c /\ S p <= length l /\ skipn (S p) l = s.
Proof.
  induction p as [|p IH]; intros [|x l] c s H; try discriminate H.
  - inv H. repeat split. cbn. lia.
  - destruct (IH l c s H) as (E & L & K). repeat split; [exact E|cbn; lia|exact K].
Qed.

Section AtSec.
Variable buf : list rune.
(** the input from offset [p] on is [s] *)
Definition At (p : nat) (s : list rune) : Prop := p <= length buf /\ skipn p buf = s.

Lemma At_cons p c s : At p (c :: s) -> nth_error buf p = Some c /\ At (S p) s.
Proof. intros [_ H]. destruct (skipn_cons_inv _ _ _ _ H) as (E & L & K). repeat split; assumption. Qed.
Lemma At_end p : At p [] -> p = length buf.
Proof. intros [L H]. assert (length (skipn p buf) = 0) by (rewrite H; reflexivity). rewrite skipn_length in H0. lia. Qed.
Lemma At_nil p : At p [] -> nth_error buf p = None.
Proof. intros H. apply nth_error_None. rewrite <- (At_end p H). apply le_n. Qed.
Lemma At_app p m s : At p (m ++ s) -> At (p + length m) s.
Proof.
  revert p; induction m as [|c m IH]; intros p H; cbn [app length] in *.
  - rewrite Nat.add_0_r. exact H.
  - apply At_cons in H. destruct H as [_ H]. replace (p + S (length m)) with (S p + length m) by lia. apply IH. exact H.
Qed.
Lemma At_app' p m s : At p (m ++ s) -> At (length m + p) s.
Proof. rewrite Nat.add_comm. apply At_app. Qed.
Lemma At_sub p m s : At p (m ++ s) -> sub buf (p, p + length m) = m.
Proof.
  intros [L H]. unfold sub. cbn [fst snd]. rewrite H. replace (p + length m - p) with (length m) by lia.
  rewrite firstn_app, Nat.sub_diag, firstn_all. cbn. apply app_nil_r.
Qed.
Lemma At_start : At 0 buf.
Proof. split; [lia|reflexivity]. Qed.

Lemma At_inj p q s : At p s -> At q s -> p = q.
Proof.
  intros [Lp Sp] [Lq Sq]. assert (H : length (skipn p buf) = length (skipn q buf)) by (rewrite Sp, Sq; reflexivity).
  rewrite !skipn_length in H. lia.
Qed.
End AtSec.

(** A window bounds the next characters of the input one by one, each by a range; an empty range stands for the
    end of the input.  [dead names e w] is a sufficient test, on the shape of [e], for [e] to fail on every input
    inside [w] ([dead_ko]): it looks at first characters, further only along sequences of single characters, and
    asks [names] about the rules [e] calls.  [deads n] is that answer for the rules of [g], calls followed [n]
    deep.  The test computes, so an ordered choice can be entered behind the alternatives that are dead
    ([oka_skip_dead]). *)
Definition window := list (rune * rune).
Fixpoint in_window (w : window) (s : list rune) : Prop :=
  match w, s with
  | [], _ => True
  | (lo, hi) :: w', c :: s' => (lo <= c <= hi)%Z /\ in_window w' s'
  | (lo, hi) :: _, [] => (hi < lo)%Z
  end.

Definition single (e : expr) : bool := match e with EDot | EChar _ | ERange _ _ => true | _ => false end.

Definition misses (w : window) (a b : rune) : bool :=
  match w with (lo, hi) :: _ => (b <? lo) || (hi <? a) || (hi <? lo) | [] => false end%Z.

Fixpoint dead (names : nat -> window -> bool) (e : expr) (w : window) {struct e} : bool :=
  match e with
  | EChar a => misses w a a
  | ERange l h => misses w l h
  | EName r => names r w
  | ESeq es =>
      (* a one-character head either fails or moves the window on by one *)
      (fix seq (es : list expr) (w : window) : bool :=
         match es with
         | [] => false
         | e1 :: es' => dead names e1 w || match w with _ :: w' => single e1 && seq es' w' | [] => false end
         end) es w
  | EAlt es => forallb (fun e1 => dead names e1 w) es
  | EAnd e1 | EPlus e1 | EPush e1 => dead names e1 w
  | _ => false
  end.

Fixpoint deads (g : grammar) (n r : nat) (w : window) : bool :=
  match n, nth_error g r with
  | S n', Some (RBody b) => dead (deads g n') b w
  | _, _ => false
  end.

Fixpoint skip_dead (names : nat -> window -> bool) (w : window) (es : list expr) : list expr :=
  match es with e :: es' => if dead names e w then skip_dead names w es' else es | [] => [] end.

Section Window.
Variable g : grammar.
Variable ptx : nat.
Variable buf : list rune.
Variable penv : nat -> nat -> bool.
Notation ok := (ok g ptx buf penv).
Notation ko := (ko g ptx buf penv).
Notation At := (At buf).

Lemma misses_head w a b p s c : At p s -> in_window w s -> misses w a b = true -> nth_error buf p = Some c -> (c < a \/ b < c)%Z.
Proof.
  intros Hat W D E. destruct w as [|[lo hi] w]; [discriminate D|]. destruct s as [|x s].
  - rewrite (At_nil _ _ Hat) in E. discriminate E.
  - destruct (At_cons _ _ _ _ Hat) as [E' _]. rewrite E in E'. inv E'. destruct W as [W _]. cbn [misses] in D. lia.
Qed.

Lemma single_step e p c : single e = true -> nth_error buf p = Some c -> ko e p \/ ok e p (S p) [].
Proof.
  intros S E. destruct e; try discriminate.
  - right. eapply ok_dot. exact E.
  - destruct (Z.eq_dec c0 c) as [->|N]; [right; apply ok_char; exact E|left; apply ko_char; congruence].
  - destruct (in_range lo hi c) eqn:R; [right; eapply ok_range; eassumption|left; apply ko_range; congruence].
Qed.
Lemma single_end e p : single e = true -> nth_error buf p = None -> ko e p.
Proof.
  intros S E. destruct e; try discriminate; [apply ko_dot; exact E|apply ko_char|apply ko_range]; intros c' E'; congruence.
Qed.

Lemma dead_ko names : (forall r w p s, At p s -> in_window w s -> names r w = true -> ko (EName r) p) ->
  forall e w p s, At p s -> in_window w s -> dead names e w = true -> ko e p.
Proof.
  intros Hn e. induction e using expr_ind2; intros w p s Hat W D; cbn [dead] in D; try discriminate.
  - apply ko_char. intros c' E. destruct (misses_head _ _ _ _ _ _ Hat W D E); lia.
  - apply ko_range. intros c' E. pose proof (misses_head _ _ _ _ _ _ Hat W D E). unfold in_range. lia.
  - eapply Hn; eassumption.
  - apply ko_seq. revert w p s Hat W D. induction H as [|e1 es H1 _ IH]; intros w p s Hat W D; [discriminate|].
    apply orb_true_iff in D. destruct D as [D|D]; [apply kos_head; eapply H1; eassumption|].
    destruct w as [|[lo hi] w]; [discriminate|]. apply andb_true_iff in D. destruct s as [|x s].
    + apply kos_head, single_end; [apply D|apply At_nil; exact Hat].
    + destruct (At_cons _ _ _ _ Hat) as [E A1].
      destruct (single_step e1 p x (proj1 D) E) as [K|O]; [apply kos_head; exact K|].
      eapply kos_tail; [exact O|eapply IH; [exact A1|apply W|apply D]].
  - apply ko_alt. induction H as [|e1 es H1 _ IH]; [apply koa_nil|]. apply andb_true_iff in D.
    apply koa_cons; [eapply H1; [eassumption..|apply D]|apply IH; apply D].
  - apply ko_and. eapply IHe; eassumption.
  - apply ko_plus. eapply IHe; eassumption.
  - apply ko_push. eapply IHe; eassumption.
Qed.

Lemma deads_ko n : forall r w p s, At p s -> in_window w s -> deads g n r w = true -> ko (EName r) p.
Proof.
  induction n as [|n IH]; intros r w p s Hat W D; cbn [deads] in D; [discriminate D|].
  destruct (nth_error g r) as [[b| |]|] eqn:E; try discriminate D.
  eapply ko_name; [exact E|]. eapply dead_ko; [exact IH|eassumption..].
Qed.

Lemma oka_skip_dead n w es p s p' f : At p s -> in_window w s ->
  oka g ptx buf penv (skip_dead (deads g n) w es) p p' f -> oka g ptx buf penv es p p' f.
Proof.
  intros Hat W. induction es as [|e es IH]; cbn [skip_dead]; [trivial|]. destruct (dead (deads g n) e w) eqn:D; [|trivial].
  intros H. apply oka_tail; [eapply dead_ko; [apply deads_ko|eassumption..]|apply IH; exact H].
Qed.
End Window.
