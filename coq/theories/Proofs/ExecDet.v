(** The goto semantics of Model/Exec.v is deterministic: a statement, a statement list and a call have at most one
    outcome.  With it, "there is an execution that returns r" (Proofs/SEmitSound.v) becomes "every execution returns r". *)
From Coq Require Import ZArith.
From PegV Require Import Base.Tac Spec.Syntax Model.Machine Model.SEmit Model.Exec.
Import ListNotations.

Scheme xi_mut := Induction for xi Sort Prop
  with xs_mut := Induction for xs Sort Prop
  with xcall_mut := Induction for xcall Sort Prop.
Combined Scheme exec_mutind from xi_mut, xs_mut, xcall_mut.

Section Det.
Variable buf : list rune.
Variable penv : nat -> nat -> bool.
Variable o : opts.
Variable fn : nat -> option (list scode).
Notation xi := (xi buf penv o fn).
Notation xs := (xs buf penv o fn).
Notation xcall := (xcall buf penv o fn).

(** use the induction hypotheses on whatever the other derivation contains, then compare *)
Ltac use_ih :=
  repeat match goal with
  | IH : forall res', xcall ?r ?m res' -> ?res = res', H : xcall ?r ?m ?res2 |- _ =>
      let E := fresh in pose proof (IH _ H) as E; clear H; try discriminate E; try (injection E as E); subst
  | IH : forall out', xi ?i ?x out' -> ?out = out', H : xi ?i ?x ?out2 |- _ =>
      let E := fresh in pose proof (IH _ H) as E; clear H; try discriminate E; try (injection E as E); subst
  | IH : forall out', xs ?c ?k ?x out' -> ?out = out', H : xs ?c ?k ?x ?out2 |- _ =>
      let E := fresh in pose proof (IH _ H) as E; clear H; try discriminate E; try (injection E as E); subst
  end.

Lemma exec_det :
  (forall i x out, xi i x out -> forall out', xi i x out' -> out = out') /\
  (forall c k x out, xs c k x out -> forall out', xs c k x out' -> out = out') /\
  (forall r m res, xcall r m res -> forall res', xcall r m res' -> res = res').
Proof.
  apply exec_mutind; cbv beta; intros;
    match goal with |- _ = ?o' =>
      match goal with H' : xi _ _ o' |- _ => inversion H'; subst; clear H'
                    | H' : xs _ _ _ o' |- _ => inversion H'; subst; clear H'
                    | H' : xcall _ _ o' |- _ => inversion H'; subst; clear H' end end;
    try reflexivity; try congruence; use_ih; try reflexivity; try congruence.
  all: try (match goal with A : ?a = Some ?u, B : ?a = Some ?v |- _ => assert (u = v) by congruence; subst end; use_ih; try reflexivity; try congruence).
Qed.

Corollary xcall_det r m res res' : xcall r m res -> xcall r m res' -> res = res'.
Proof. intros H H'. exact (proj2 (proj2 exec_det) r m res H res' H'). Qed.
End Det.
