(** What Go wants of a generated file beyond the label and block skeleton (Proofs/EmitWF.v): a function with a
    result ends in a terminating statement - every rule function the emitter writes ends in a return; every rule
    constant fits the type chosen for pegRule; no rule comment ends before its text does. *)
From PegV Require Import Base.Tac Spec.Syntax Model.Analyses Model.EmitFacts Model.Emit Model.SEmit.

Lemma srule_ends_in_return g ptx ast inl asu used n r ko :
  exists pre b, fst (srule_emit g ptx ast inl asu used n r ko) = pre ++ [SReturn b].
Proof.
  unfold srule_emit. destruct (sipush_emit g ast (semit g ptx ast inl asu used n) r ko false false (S ko)) as [[c l1] ll]. cbn [fst].
  destruct (used ko).
  - eexists. exists false. rewrite !app_assoc.
    change ([SRestore ko; SReturn false]) with ([SRestore ko] ++ [SReturn false]). rewrite !app_assoc. reflexivity.
  - eexists. exists true. rewrite app_nil_r, !app_assoc. reflexivity.
Qed.

Lemma spass_ends_in_return g ptx ast inline asu undef cr fl real u : forall rs r l,
  Forall (fun o => match o with Some F => exists pre b, F = pre ++ [SReturn b] | None => True end)
         (spass g ptx ast inline asu undef cr fl real u rs r l).
Proof.
  induction rs as [|rb rs IH]; intros r l; cbn [spass]; [constructor|].
  destruct (match rb with RNil => if undef r then real else true | _ => false end); [constructor; [exact I|apply IH]|].
  destruct (negb (reached cr r)); [constructor; [exact I|apply IH]|].
  destruct (once inline cr r && negb (Nat.eqb l 0))%bool; [constructor; [exact I|apply IH]|].
  pose proof (srule_ends_in_return g ptx ast (once inline cr) asu u fl r l) as U.
  destruct (srule_emit g ptx ast (once inline cr) asu u fl r l) as [c l1]. cbn [fst] in U.
  constructor; [exact U|apply IH].
Qed.

Theorem functions_end_in_return g ptx ast inline asu undef :
  Forall (fun o => match o with Some F => exists pre b, F = pre ++ [SReturn b] | None => True end)
         (semit_all g ptx ast inline asu undef).
Proof. unfold semit_all. apply spass_ends_in_return. Qed.

Local Open Scope Z_scope.

(** every rule constant and memo id fits the type chosen for pegRule: the largest id is the number of
    rule nodes, which is below the number of top-level nodes the type is chosen from *)
Theorem rule_ids_fit tlen id : 0 <= id -> id <= tlen -> tlen < 2 ^ 63 -> id <= umax (peg_rule_type tlen).
Proof.
  intros H0 H Hb. unfold peg_rule_type.
  destruct (Z.ltb_spec 4294967295 tlen); [cbn [umax]; lia|].
  destruct (Z.ltb_spec 65535 tlen); [cbn [umax]; lia|].
  destruct (Z.ltb_spec 255 tlen); cbn [umax]; lia.
Qed.

Lemma esc_cons2 c d r :
  escape_comment (c :: d :: r) =
    if (Z.eqb c star && Z.eqb d slash)%bool then star :: blank :: slash :: escape_comment r
    else c :: escape_comment (d :: r).
Proof. reflexivity. Qed.
Lemma term_cons2 c d r : has_terminator (c :: d :: r) = (Z.eqb c star && Z.eqb d slash)%bool || has_terminator (d :: r).
Proof. reflexivity. Qed.

(** the second part is what the induction needs: a slash at the head of the escaped rest, which would close
    a star put before it, is the rest's own *)
Lemma escape_no_terminator s :
  has_terminator (escape_comment s) = false /\
  (forall r, escape_comment s = slash :: r -> exists r0, s = slash :: r0).
Proof.
  induction s as [s IH] using (well_founded_induction (well_founded_ltof _ (@length Z))).
  destruct s as [|c [|d r]].
  - split; [reflexivity|]. intros r H; discriminate.
  - split; [reflexivity|]. intros r H. inv H. eauto.
  - rewrite esc_cons2.
    destruct (Z.eqb_spec c star) as [->|Hc]; [destruct (Z.eqb_spec d slash) as [->|Hd]|]; cbn [andb].
    + destruct (IH r) as [I1 I2]; [unfold ltof; cbn; lia|].
      split; [|intros r0 H; inv H].
      destruct (escape_comment r) as [|x xs] eqn:E; [reflexivity|].
      rewrite !term_cons2. replace (star =? star) with true by reflexivity. replace (blank =? slash) with false by reflexivity.
      replace (blank =? star) with false by reflexivity. replace (slash =? star) with false by reflexivity.
      cbn [andb orb]. exact I1.
    + destruct (IH (d :: r)) as [I1 I2]; [unfold ltof; cbn; lia|].
      split; [|intros r0 H; inv H].
      destruct (escape_comment (d :: r)) as [|x xs] eqn:E; [reflexivity|].
      rewrite term_cons2. replace (star =? star) with true by reflexivity. cbn [andb].
      destruct (Z.eqb_spec x slash) as [->|Hx]; [|cbn [orb]; exact I1].
      destruct (I2 xs eq_refl) as (r0 & E0). inv E0. contradiction.
    + destruct (IH (d :: r)) as [I1 I2]; [unfold ltof; cbn; lia|].
      split.
      * destruct (escape_comment (d :: r)) as [|x xs] eqn:E; [reflexivity|].
        rewrite term_cons2. destruct (Z.eqb_spec c star); [contradiction|]. cbn [andb orb]. exact I1.
      * intros r0 H. inv H. eauto.
Qed.

Theorem comment_never_terminated s : has_terminator (escape_comment s) = false.
Proof. apply escape_no_terminator. Qed.
