(** The machine depends on its options only through their values: two option records that agree on every
    rule run alike. *)
From PegV Require Import Spec.Syntax Spec.Peg Model.Machine.
From Coq Require Import List Bool.
Import ListNotations.

Section Ext.
Variable g : grammar.
Variable ptx : nat.
Variable buf : list rune.
Variable penv : nat -> nat -> bool.
Variable ast memo : bool.
Variable inl inl' asu asu' : nat -> bool.
Hypothesis Hinl : forall r, inl r = inl' r.
Hypothesis Hasu : forall r, asu r = asu' r.
Let o := mkopts ast memo inl asu.
Let o' := mkopts ast memo inl' asu'.
Notation runT := (expr -> bool -> bool -> mstate -> option mres).
Definition feq (f f' : runT) : Prop := forall e pd mk st, f e pd mk st = f' e pd mk st.

Lemma seq_run_ext f f' : feq f f' -> forall es pd mk st, seq_run f es pd mk st = seq_run f' es pd mk st.
Proof.
  intros H es. induction es as [|e es IH]; intros pd mk st; cbn [seq_run]; [reflexivity|].
  rewrite H. destruct (f' e pd mk st) as [[|[|] s]|]; try reflexivity. apply IH.
Qed.
Lemma alt_run_ext f f' : feq f f' -> forall es pd mk p0 t0 st, alt_run f es pd mk p0 t0 st = alt_run f' es pd mk p0 t0 st.
Proof.
  intros H es. induction es as [|e es IH]; intros pd mk p0 t0 st; cbn [alt_run]; [reflexivity|].
  rewrite H. destruct (f' e pd mk st) as [[|[|] s]|]; try reflexivity. destruct es; [reflexivity|apply IH].
Qed.
Lemma ipush_run_ext f f' : feq f f' -> forall r pd mk st, ipush_run g o f r pd mk st = ipush_run g o' f' r pd mk st.
Proof.
  intros H r pd mk st. unfold ipush_run. destruct (nth_error g r) as [[b|k|]|]; try reflexivity. rewrite H. reflexivity.
Qed.
Lemma rule_fn_ext f f' : feq f f' -> forall r st, rule_fn g o f r st = rule_fn g o' f' r st.
Proof.
  intros H r st. unfold rule_fn. rewrite (ipush_run_ext f f' H). reflexivity.
Qed.
Lemma call_run_ext f f' : feq f f' -> forall r st, call_run g o f r st = call_run g o' f' r st.
Proof.
  intros H r st. unfold call_run. rewrite (rule_fn_ext f f' H). cbn [o_asu o o']. rewrite Hasu. reflexivity.
Qed.

Lemma run_f_ext n : feq (run_f g ptx buf penv o n) (run_f g ptx buf penv o' n).
Proof.
  induction n as [|n IH]; intros e pd mk st; [reflexivity|].
  destruct e; cbn [run_f]; try reflexivity; rewrite ?IH; try reflexivity.
  - cbn [o_inline o o']. rewrite Hinl. destruct (inl' r); [apply ipush_run_ext|apply call_run_ext]; exact IH.
  - apply seq_run_ext. exact IH.
  - apply alt_run_ext. exact IH.
  - destruct (run_f g ptx buf penv o' n e false false st) as [[|[|] s]|]; try reflexivity. apply IH.
  - destruct (run_f g ptx buf penv o' n e false false st) as [[|[|] s]|]; try reflexivity. apply IH.
  - destruct (rd buf st); [|reflexivity]. destruct (find_case_keys cs r) as [[keys e1]|]; [apply IH|reflexivity].
Qed.

Lemma entry_ext n r st : entry g ptx buf penv o n r st = entry g ptx buf penv o' n r st.
Proof. unfold entry. cbn [o_inline o o']. rewrite Hinl. rewrite (run_f_ext n). reflexivity. Qed.
End Ext.
