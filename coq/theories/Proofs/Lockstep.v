(** The case analysis shared by the two simulation proofs (Sim.v: AST mode, SimNoast.v: -noast).
    [run_f] and [peg_ev] are followed in lock step by induction on the fuel.  What a mode keeps in its
    state and how that relates to the result of the semantics enters only through [mode]: an invariant
    of machine states and a relation (state before, result of the semantics, result of the machine),
    with one closure property per way the generated code combines the code of sub-expressions. *)
From PegV Require Import Base.Tac Spec.Syntax Spec.Peg Spec.WF Model.Machine Model.SkipCheck Proofs.PegFacts.

Section Lockstep.
Variable g : grammar.
Variable ptx : nat.
Variable buf : list rune.
Variable penv : nat -> nat -> bool.
Variable o : opts.

Notation ev := (peg_ev g ptx buf penv).
Notation run := (run_f g ptx buf penv o).
Notation chain := (chain g (o_inline o)).
Notation swok := (swok g (o_inline o)).

Lemma rd_in st c : nth_error buf (pos st) = Some c -> rd buf st = Some c.
Proof. intros E. unfold rd, sbuf. rewrite nth_error_app1 by (apply nth_error_Some; congruence). exact E. Qed.

Lemma rd_end st : pos st <= length buf -> nth_error buf (pos st) = None -> rd buf st = Some endSymbol.
Proof.
  intros Hp E. apply nth_error_None in E. unfold rd, sbuf.
  rewrite nth_error_app2 by exact E. replace (pos st - length buf) with 0 by lia. reflexivity.
Qed.

Variable Inv : mstate -> Prop.
Variable rel : mstate -> out -> option mres -> Prop.

Record mode : Prop := {
  inv_pos st : Inv st -> pos st <= length buf;
  rel_succ st p f evs m : rel st (Succ p f, evs) m -> exists st', m = Some (Ret true st') /\ Inv st' /\ pos st' = p;
  rel_fail st evs m : rel st (Fail, evs) m -> exists st', m = Some (Ret false st');
  rel_nil st : Inv st -> rel st (Succ (pos st) [], []) (Some (Ret true st));
  rel_nil_fail st : Inv st -> rel st (Fail, []) (Some (Ret false st));
  rel_adv st c : Inv st -> nth_error buf (pos st) = Some c -> rel st (Succ (S (pos st)) [], []) (Some (Ret true (advance st)));
  rel_seq st p1 f1 evs1 st1 r2 m :
    rel st (Succ p1 f1, evs1) (Some (Ret true st1)) -> rel st1 r2 m -> rel st (seq_out f1 evs1 r2) m;
  (** "!e": the state a success leaves is fit to be a failure's *)
  rel_neg st p1 f1 evs st1 : rel st (Succ p1 f1, evs) (Some (Ret true st1)) -> rel st (Fail, evs) (Some (Ret false st1));
  (** the catcher of a failure restores position and token index; the events stay *)
  rel_restore st evs st1 : Inv st -> rel st (Fail, evs) (Some (Ret false st1)) ->
    Inv (restore (pos st) (tix st) st1) /\
    forall r m, rel (restore (pos st) (tix st) st1) r m -> rel st (fst r, evs ++ snd r) m;
  rel_rule st r b p1 f1 evs1 st1 : nth_error g r = Some (RBody b) ->
    rel st (Succ p1 f1, evs1) (Some (Ret true st1)) ->
    rel st (Succ p1 [Node r (pos st) p1 f1], evs1 ++ [(r, (pos st, p1))]) (Some (Ret true (add o r (pos st) st1)));
  rel_act st r k : nth_error g r = Some (RAct k) -> Inv st ->
    rel st (Succ (pos st) [Node r (pos st) (pos st) []], [(r, (pos st, pos st))])
        (if o_ast o then Some (Ret true (add o r (pos st) st)) else Some (Ret true (log_action k st)));
  rel_push st p1 f1 evs1 st1 : rel st (Succ p1 f1, evs1) (Some (Ret true st1)) ->
    rel st (Succ p1 [Node ptx (pos st) p1 f1], evs1 ++ [(ptx, (pos st, p1))])
        (Some (Ret true (if o_ast o then add o ptx (pos st) st1 else set_text (pos st) (pos st1) st1)))
}.

Hypothesis M : mode.
Hypothesis Hg : forall r b, nth_error g r = Some (RBody b) -> expr_ok b = true.
Hypothesis Hsw : grammar_swok g (o_inline o).
Hypothesis Hasu : forall r, o_asu o r = true -> forall n p evs, ev n (EName r) p <> Some (Fail, evs).
Hypothesis Hbuf : forall c, In c buf -> c <> endSymbol.

(** when the skip flag is set, the case guard has established a character that the first terminal accepts *)
Definition skip_ok (e : expr) (pd mk : bool) (st : mstate) : Prop :=
  pd = true -> exists c, nth_error buf (pos st) = Some c /\ chain e mk c.

Lemma skip_ok_false e mk st : skip_ok e false mk st.
Proof. intros H; discriminate. Qed.

Lemma skip_ok_sub e e' pd mk st : (forall c, chain e mk c -> chain e' mk c) -> skip_ok e pd mk st -> skip_ok e' pd mk st.
Proof. intros Hc Hf Hpd. destruct (Hf Hpd) as (c & Hn & Hch). exists c. split; [exact Hn|exact (Hc c Hch)]. Qed.

Definition lockstep (n : nat) : Prop :=
  forall e pd mk st r, Inv st -> expr_ok e = true -> swok e -> skip_ok e pd mk st ->
    ev n e (pos st) = Some r -> rel st r (run n e pd mk st).

(** a failure caught by "restore and go on with nothing": e?, e*, !e, and &e after [rel_neg] *)
Lemma restore_nil st evs st1 : Inv st -> rel st (Fail, evs) (Some (Ret false st1)) ->
  rel st (Succ (pos st) [], evs) (Some (Ret true (restore (pos st) (tix st) st1))).
Proof.
  intros Hi H. destruct (rel_restore M _ _ _ Hi H) as [I1 K].
  specialize (K _ _ (rel_nil M _ I1)). cbn [fst snd] in K. rewrite app_nil_r in K. exact K.
Qed.

(** a run that [rel] ties to a result of the semantics returns, with the flag that result predicts *)
Inductive ran (st : mstate) : out -> option mres -> Prop :=
| ran_fail evs st1 : rel st (Fail, evs) (Some (Ret false st1)) -> ran st (Fail, evs) (Some (Ret false st1))
| ran_succ f1 evs st1 : rel st (Succ (pos st1) f1, evs) (Some (Ret true st1)) -> Inv st1 ->
    ran st (Succ (pos st1) f1, evs) (Some (Ret true st1)).

Lemma rel_ran st r m : rel st r m -> ran st r m.
Proof.
  intros S. destruct r as [[|p f] evs].
  - destruct (rel_fail M _ _ _ S) as (st1 & ->). constructor. exact S.
  - destruct (rel_succ M _ _ _ _ _ S) as (st1 & -> & I1 & <-). constructor; assumption.
Qed.

Lemma then_step st p1 f1 evs1 st1 (o2 : option out) r m :
  rel st (Succ p1 f1, evs1) (Some (Ret true st1)) ->
  option_map (seq_out f1 evs1) o2 = Some r -> (forall r2, o2 = Some r2 -> rel st1 r2 m) -> rel st r m.
Proof. intros S1 H K. destruct o2 as [r2|]; inv H. eapply (rel_seq M); eauto. Qed.

Lemma seq_step n (IH : lockstep n) :
  forall es pd mk st r, Inv st -> forallb expr_ok es = true -> Forall swok es -> skip_ok (ESeq es) pd mk st ->
    seq_ev (ev n) es (pos st) = Some r -> rel st r (seq_run (run n) es pd mk st).
Proof.
  induction es as [|e es IHes]; intros pd mk st r Hi Hes Hsws Hfl H; cbn [seq_ev seq_run forallb] in *.
  - inv H. apply (rel_nil M), Hi.
  - apply andb_true_iff in Hes as [He Hes]. apply Forall_cons_iff in Hsws as [Hsw1 Hsw2].
    assert (Hfe : skip_ok e pd mk st) by (eapply skip_ok_sub; [|exact Hfl]; intros c Hc; exact (chain_inv _ _ _ _ _ Hc)).
    destruct (ev n e (pos st)) as [r1|] eqn:E; [|discriminate].
    destruct (rel_ran _ _ _ (IH e pd mk st _ Hi He Hsw1 Hfe E)) as [evs1 st1 S1|f1 evs1 st1 S1 I1].
    + inv H. exact S1.
    + rewrite seq_out_eq in H. eapply then_step; [exact S1|exact H|]. intros r2 E2.
      apply IHes; auto using skip_ok_false.
Qed.

Lemma alt_step n (IH : lockstep n) :
  forall es st r, Inv st -> forallb expr_ok es = true -> Forall swok es ->
    alt_ev (ev n) es (pos st) = Some r ->
    rel st r (alt_run (run n) es false false (pos st) (tix st) st).
Proof.
  induction es as [|e es IHes]; intros st r Hi Hes Hsws H; cbn [alt_ev alt_run forallb] in *.
  - inv H. apply (rel_nil_fail M), Hi.
  - apply andb_true_iff in Hes as [He Hes]. apply Forall_cons_iff in Hsws as [Hsw1 Hsw2].
    destruct (ev n e (pos st)) as [r1|] eqn:E; [|discriminate].
    destruct (rel_ran _ _ _ (IH e false false st _ Hi He Hsw1 (skip_ok_false _ _ _) E)) as [evs1 st1 S1|f1 evs1 st1 S1 I1].
    + destruct es as [|e2 es]; [inv H; exact S1|].
      destruct (alt_ev (ev n) (e2 :: es) (pos st)) as [[r2 evs2]|] eqn:E2; [|discriminate]. inv H.
      destruct (rel_restore M _ _ _ Hi S1) as [I1 K]. apply (K (r2, evs2)).
      exact (IHes (restore (pos st) (tix st) st1) _ I1 Hes Hsw2 E2).
    + inv H. exact S1.
Qed.

(** a terminal test; the machine reads the sentinel at the end of the input, which no terminal accepts *)
Lemma term_step oks okm (Hs : okm endSymbol = false) (Hagree : forall c, c <> endSymbol -> oks c = okm c) st :
  Inv st -> rel st (term buf oks (pos st)) (Some (mterm buf okm st)).
Proof.
  intros Hi. unfold term, mterm. destruct (nth_error buf (pos st)) as [c|] eqn:E.
  - rewrite (rd_in _ _ E), <- (Hagree c) by (apply Hbuf; eapply nth_error_In; eauto).
    destruct (oks c); [exact (rel_adv M _ _ Hi E)|exact (rel_nil_fail M _ Hi)].
  - rewrite (rd_end _ (inv_pos M _ Hi) E), Hs. exact (rel_nil_fail M _ Hi).
Qed.

(** what a rule's code does, inlined or inside its function *)
Lemma ipush_step n (IH : lockstep n) r pd mk st rr :
  Inv st -> (pd = true -> o_inline o r = true) -> skip_ok (EName r) pd mk st ->
  ev (S n) (EName r) (pos st) = Some rr ->
  rel st rr (ipush_run g o (run n) r pd mk st).
Proof.
  intros Hi Hinl Hfl H. cbn [peg_ev] in H. unfold ipush_run.
  destruct (nth_error g r) as [[b|k|]|] eqn:Eg; try discriminate.
  - assert (Hfb : skip_ok b pd mk st).
    { intros Hpd. destruct (Hfl Hpd) as (c & Hc & Hch). exists c. split; [exact Hc|].
      exact (chain_inv _ _ _ _ _ Hch (Hinl Hpd) _ Eg). }
    destruct (ev n b (pos st)) as [r1|] eqn:E; [|discriminate].
    destruct (rel_ran _ _ _ (IH b pd mk st _ Hi (Hg _ _ Eg) (Hsw _ _ Eg) Hfb E)) as [evs1 st1 S1|f1 evs1 st1 S1 I1]; inv H.
    + exact S1.
    + exact (rel_rule M _ _ _ _ _ _ _ Eg S1).
  - inv H. exact (rel_act M _ _ _ Eg Hi).
Qed.

(** the rule function of the mode (Model/Machine.v [rule_fn]: in AST mode with its memo check and memoize) *)
Hypothesis Hrule : forall n, lockstep n -> forall r st rr, Inv st ->
  ev (S n) (EName r) (pos st) = Some rr -> rel st rr (rule_fn g o (run n) r st).

Lemma call_step n (IH : lockstep n) r st rr :
  Inv st -> ev (S n) (EName r) (pos st) = Some rr -> rel st rr (call_run g o (run n) r st).
Proof.
  intros Hi H. pose proof (Hrule n IH r st rr Hi H) as S1. unfold call_run.
  destruct (o_asu o r) eqn:Ea; [|exact S1].
  destruct (rel_ran _ _ _ S1) as [evs1 st1 S1'|f1 evs1 st1 S1' I1]; [destruct (Hasu _ Ea _ _ _ H)|exact S1'].
Qed.

Theorem lockstep_all n : lockstep n.
Proof.
  induction n as [|n IH]; intros e pd mk st r Hi He Hswe Hfl H; [discriminate|].
  destruct e; cbn [expr_ok] in He; try discriminate; cbn [peg_ev] in H; cbn [run_f].
  - (* EDot *) destruct pd.
    + destruct (Hfl eq_refl) as (c & _ & Hch). destruct (chain_inv _ _ _ _ _ Hch).
    + inv H. apply term_step; auto.
      intros c Hc. destruct (Z.eqb_spec c endSymbol); [contradiction|reflexivity].
  - (* EChar *) apply Z.ltb_lt in He. inv H. destruct (pd && negb mk)%bool eqn:Ef.
    + (* the test is skipped: the guard has established the character *)
      apply andb_true_iff in Ef as [-> Emk]. apply negb_true_iff in Emk as ->.
      destruct (Hfl eq_refl) as (c0 & Hc0 & Hch). destruct (chain_inv _ _ _ _ _ Hch) as [?| ->]; [discriminate|].
      unfold term. rewrite Hc0, Z.eqb_refl. exact (rel_adv M _ _ Hi Hc0).
    + apply term_step; auto. apply Z.eqb_neq. lia.
  - (* ERange *) apply Z.ltb_lt in He. inv H. destruct pd.
    + destruct (Hfl eq_refl) as (c0 & Hc0 & Hch). unfold term. rewrite Hc0, (chain_inv _ _ _ _ _ Hch).
      exact (rel_adv M _ _ Hi Hc0).
    + apply term_step; auto. apply andb_false_intro2, Z.leb_gt, He.
  - (* EName *)
    assert (H' : ev (S n) (EName r0) (pos st) = Some r) by exact H.
    destruct (o_inline o r0) eqn:Einl; [apply ipush_step | apply call_step]; auto.
  - (* EPred *) inv H. destruct (penv k (pos st)); [apply (rel_nil M)|apply (rel_nil_fail M)]; exact Hi.
  - (* EState *) inv H. apply (rel_nil M), Hi.
  - (* EAct *) inv H. apply (rel_nil M), Hi.
  - (* ENil *) inv H. apply (rel_nil M), Hi.
  - (* ESeq *) apply seq_step; auto. apply swok_seq, Hswe.
  - (* EAlt *) apply alt_step; auto. apply swok_alt, Hswe.
  - (* EAnd *)
    destruct (ev n e (pos st)) as [r1|] eqn:E; [|discriminate].
    destruct (rel_ran _ _ _ (IH e false false st _ Hi He Hswe (skip_ok_false _ _ _) E)) as [evs1 st1 S1|f1 evs1 st1 S1 I1]; inv H.
    + exact S1.
    + exact (restore_nil _ _ _ Hi (rel_neg M _ _ _ _ _ S1)).
  - (* ENot *)
    destruct (ev n e (pos st)) as [r1|] eqn:E; [|discriminate].
    destruct (rel_ran _ _ _ (IH e false false st _ Hi He Hswe (skip_ok_false _ _ _) E)) as [evs1 st1 S1|f1 evs1 st1 S1 I1]; inv H.
    + exact (restore_nil _ _ _ Hi S1).
    + exact (rel_neg M _ _ _ _ _ S1).
  - (* EQuery *)
    destruct (ev n e (pos st)) as [r1|] eqn:E; [|discriminate].
    destruct (rel_ran _ _ _ (IH e false false st _ Hi He Hswe (skip_ok_false _ _ _) E)) as [evs1 st1 S1|f1 evs1 st1 S1 I1]; inv H.
    + exact (restore_nil _ _ _ Hi S1).
    + exact S1.
  - (* EStar *)
    destruct (ev n e (pos st)) as [r1|] eqn:E; [|discriminate].
    destruct (rel_ran _ _ _ (IH e false false st _ Hi He Hswe (skip_ok_false _ _ _) E)) as [evs1 st1 S1|f1 evs1 st1 S1 I1].
    + inv H. exact (restore_nil _ _ _ Hi S1).
    + rewrite seq_out_eq in H.
      eapply then_step; [exact S1|exact H|]. intros r2 E2.
      exact (IH (EStar e) false false st1 r2 I1 He Hswe (skip_ok_false _ _ _) E2).
  - (* EPlus *)
    destruct (ev n e (pos st)) as [r1|] eqn:E; [|discriminate].
    destruct (rel_ran _ _ _ (IH e false false st _ Hi He Hswe (skip_ok_false _ _ _) E)) as [evs1 st1 S1|f1 evs1 st1 S1 I1].
    + inv H. exact S1.
    + rewrite seq_out_eq in H.
      eapply then_step; [exact S1|exact H|]. intros r2 E2.
      exact (IH (EStar e) false false st1 r2 I1 He Hswe (skip_ok_false _ _ _) E2).
  - (* EPush *)
    assert (Hfe : skip_ok e pd mk st) by (eapply skip_ok_sub; [|exact Hfl]; intros c Hc; exact (chain_inv _ _ _ _ _ Hc)).
    destruct (ev n e (pos st)) as [r1|] eqn:E; [|discriminate].
    destruct (rel_ran _ _ _ (IH e pd mk st _ Hi He Hswe Hfe E)) as [evs1 st1 S1|f1 evs1 st1 S1 I1]; inv H.
    + exact S1.
    + exact (rel_push M _ _ _ _ _ S1).
  - (* ESwitch *)
    apply andb_true_iff in He as [Hec Hed].
    assert (Hswd : swok e) by (cbn [SkipCheck.swok] in Hswe; apply Hswe).
    destruct (nth_error buf (pos st)) as [c|] eqn:Ec.
    + rewrite (rd_in _ _ Ec).
      unfold find_case in H. destruct (find_case_keys cs c) as [[keys e1]|] eqn:Ef; cbn [option_map snd] in H.
      * destruct (find_case_keys_spec _ _ _ _ Ef) as [Hin Hck].
        destruct (swok_switch_case _ _ _ _ _ _ _ Hswe Hin Hck) as [Hsw1 Hch1].
        assert (He1 : expr_ok e1 = true).
        { rewrite forallb_forall in Hec. specialize (Hec _ Hin). cbn [fst snd] in Hec. apply andb_true_iff in Hec as [_ X]. exact X. }
        apply IH; auto. intros _. exists c. auto.
      * apply IH; auto. apply skip_ok_false.
    + rewrite (rd_end _ (inv_pos M _ Hi) Ec), (find_case_keys_end _ Hec). apply IH; auto. apply skip_ok_false.
Qed.

End Lockstep.
