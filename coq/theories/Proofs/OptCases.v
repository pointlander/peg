(** Go rejects a switch with the same constant in two case clauses.  The switches the -switch pass builds never
    have one: the clauses are made of the alternatives whose first sets meet no later alternative's, so their
    key lists are pairwise disjoint, and the keys of one clause are the elements of one interval list.
    The file ends with the emitter's half of the same claim: the statement emitter (Model/SEmit.v) copies
    the key lists into the case clauses as they are ([scases_keys]). *)
From PegV Require Import Base.Tac Base.ListX Spec.Syntax Model.SetImpl Model.Optimize Model.SEmit Proofs.SetProofs Proofs.OptSound Proofs.OptSwok.
From Coq Require Import Permutation.
Local Open Scope Z_scope.

(** no character stands in two clauses of one switch (nor twice in one clause), anywhere in the expression *)
Fixpoint sw_distinct (e : expr) : Prop :=
  match e with
  | ESeq es | EAlt es => (fix go (l : list expr) : Prop := match l with [] => True | x :: l' => sw_distinct x /\ go l' end) es
  | EAnd e1 | ENot e1 | EQuery e1 | EStar e1 | EPlus e1 | EPush e1 => sw_distinct e1
  | ESwitch cs d =>
      NoDup (flat_map fst cs) /\
      (fix go (l : list (list rune * expr)) : Prop := match l with [] => True | x :: l' => sw_distinct (snd x) /\ go l' end) cs /\
      sw_distinct d
  | _ => True
  end.

(** the nested [fix] over a list is [Forall] *)
Lemma all_Forall {A} (P : A -> Prop) l :
  (fix go (l : list A) : Prop := match l with [] => True | x :: l' => P x /\ go l' end) l <-> Forall P l.
Proof. induction l as [|x l IH]; [split; constructor|]. split; [intros [A0 B]; constructor; [exact A0|apply IH; exact B]|intros H; inv H; split; [assumption|apply IH; assumption]]. Qed.

Lemma ascending_lt lo l : ascending_from lo l -> forall x, In x l -> lo <= x.
Proof. induction 1 as [|lo y l Hy Hl IH]; intros x Hx; [destruct Hx|]. destruct Hx as [<-|Hx]; [exact Hy|]. specialize (IH x Hx). lia. Qed.
Lemma ascending_nodup lo l : ascending_from lo l -> NoDup l.
Proof.
  induction 1 as [|lo y l Hy Hl IH]; constructor; [|exact IH]. intros Hin. pose proof (ascending_lt _ _ Hl y Hin). lia.
Qed.
Lemma keys_nodup s : Inv s -> NoDup (keys_of s).
Proof. intros H. unfold keys_of. apply NoDup_filter. eapply ascending_nodup. apply (elements_ascending s 0 H). Qed.

(** the alternatives that meet no later one, in order: their keys are all different *)
Lemma sep_nodup (l : list item) : sep l -> Forall (fun i => Inv (fst (snd i))) l ->
  NoDup (flat_map (fun x : iset * expr => keys_of (fst x)) (map snd (filter (fun x => negb (fst x)) l))).
Proof.
  induction l as [|[fl [s e]] l IH]; intros Hsep HI; [constructor|]. destruct Hsep as [Hs Hsep]. inv HI.
  cbn [filter fst]. destruct fl; cbn [negb]; [apply IH; assumption|].
  cbn [map flat_map snd fst]. apply NoDup_app_intro; [apply keys_nodup; assumption|apply IH; assumption|].
  intros x Hx Hin. apply keys_of_in in Hx as [Hx _].
  apply in_flat_map in Hin as ([s' a'] & Hin & Hk). cbn [fst] in Hk. apply keys_of_in in Hk as [Hk _].
  apply in_map_iff in Hin as ([fl [s2 a2]] & E & Hin). cbn [snd] in E. inv E. apply filter_In in Hin as [Hin _].
  specialize (Hs eq_refl). rewrite Forall_forall in Hs. specialize (Hs _ Hin x Hx). cbn [fst snd] in Hs. congruence.
Qed.

Section Cases.
Variable g : grammar.
Hypothesis Hro : forall r b, nth_error g r = Some (RBody b) -> ranges_ok b = true.
Variable T : list fsres.
Hypothesis HT : tinv g T.

Theorem opt_sw_distinct : forall e, ranges_ok e = true -> sw_distinct (opt T e).
Proof.
  induction e using expr_ind2; cbn [ranges_ok]; intros Hr; try exact I; try discriminate; try (cbn [opt sw_distinct]; auto; fail).
  - (* sequence *) cbn [opt sw_distinct]. apply (all_Forall sw_distinct), Forall_map. exact (Forall_forallb_mp _ _ _ H Hr).
  - (* choice *)
    pose proof (Forall_forallb_mp _ _ _ H Hr) as Hsub.
    apply (opt_alt_cases T sw_distinct); [cbn [sw_distinct]; apply (all_Forall sw_distinct), Forall_map; exact Hsub|].
    rewrite Forall_forall in Hsub.
    intros sd d before _ Pm _.
    assert (Hinv : forall x, In x es -> Inv (snd (fs T x))).
    { intros x Hx. apply (fs_inv_gen g); [exact HT|]. exact (proj1 (forallb_forall _ _) Hr x Hx). }
    assert (Hnd : NoDup (flat_map (fun x : iset * expr => keys_of (fst x)) (rev before))).
    { pose proof (sep_nodup _ (items_sep T es Hinv) (items_inv T es Hinv)) as N. fold (unord_of T es) in N.
      eapply Permutation_NoDup in N; [|apply Permutation_flat_map; symmetry; exact Pm].
      rewrite flat_map_app in N. eapply NoDup_app_l. exact N. }
    assert (Hun : forall s e', In (s, e') (unord_of T es) -> sw_distinct e').
    { intros s e' Hin. destruct (unord_in T s e' es Hin) as (x & Hx & _ & ->). auto. }
    assert (Hsw : sw_distinct (ESwitch (map (fun x => (keys_of (fst x), snd x)) (rev before)) d)).
    { cbn [sw_distinct]. split; [|split].
      - rewrite flat_map_concat_map, map_map. cbn [fst]. rewrite <- flat_map_concat_map. exact Hnd.
      - apply (all_Forall (fun x => sw_distinct (snd x))). apply Forall_forall. intros [keys b] Hin. apply in_map_iff in Hin as ([s e'] & E0 & Hin). cbn [fst snd] in *. injection E0 as E1 E2. subst keys b.
        assert (Hin' : In (s, e') (unord_of T es)) by (eapply Permutation_in; [exact Pm|]; apply in_or_app; left; exact Hin).
        exact (Hun s e' Hin').
      - assert (Hin' : In (sd, d) (unord_of T es)) by (eapply Permutation_in; [exact Pm|]; apply in_or_app; right; left; reflexivity).
        exact (Hun sd d Hin'). }
    destruct (ordered_of T es) as [|o1 os] eqn:Eo; [exact Hsw|].
    cbn [sw_distinct]. apply (all_Forall sw_distinct). apply Forall_app. split; [|constructor; [exact Hsw|constructor]].
    apply Forall_forall. intros y Hy. rewrite <- Eo in Hy. destruct (ordered_in T y es Hy) as (x & Hx & ->). auto.
Qed.
End Cases.

(** a tree without switch nodes has nothing to check *)
Lemma plain_sw_distinct : forall e, ranges_ok e = true -> sw_distinct e.
Proof.
  induction e using expr_ind2; cbn [ranges_ok]; intros Hr; try exact I; try discriminate; cbn [sw_distinct]; auto.
  - apply (all_Forall sw_distinct). exact (Forall_forallb_mp _ _ _ H Hr).
  - apply (all_Forall sw_distinct). exact (Forall_forallb_mp _ _ _ H Hr).
Qed.

(** the whole pass: no switch of the optimised tree has a character in two clauses *)
Theorem optimize_cases_distinct g : (forall r b, nth_error g r = Some (RBody b) -> ranges_ok b = true) ->
  forall r b, nth_error (optimize g) r = Some (RBody b) -> sw_distinct b.
Proof.
  intros Hro r b' Hb'. destruct (optimize_nth g r b' Hb') as (b & Hb & [->|(T & Et & ->)]).
  - apply plain_sw_distinct. eapply Hro; eauto.
  - eapply opt_sw_distinct; [exact (proj1 (stable_fix g Hro T Et))|]. eapply Hro; eauto.
Qed.

(** the emitter writes the keys of a switch node as they are: clause by clause, in order *)
Lemma scases_keys (f : expr -> nat -> bool -> bool -> nat -> sres) cs : forall ko l,
  map fst (fst (scases_emit f cs ko l)) = map fst cs.
Proof.
  induction cs as [|[keys b] cs IH]; intros ko l; cbn [scases_emit]; [reflexivity|].
  destruct (f b ko true (Nat.ltb 1 (length keys)) l) as [[c l1] ll]. specialize (IH ko l1).
  destruct (scases_emit f cs ko l1) as [rest l2]. cbn [fst map] in *. rewrite IH. reflexivity.
Qed.
