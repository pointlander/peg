(** C15: the diagnostics computed by Model/Analyses.v are exact - the names reported as used but not defined,
    defined but not used, and defined twice are the ones that are ([undefined_exact], [unused_exact],
    [duplicates_exact]).  The file opens with two facts about Model/Analyses.v that other files import it for:
    [memb_In], the specification of the membership test, and [esize_pos], an expression's size is positive. *)
From PegV Require Import Base.Tac Model.Analyses.

Lemma memb_In x l : memb x l = true <-> In x l.
Proof.
  unfold memb. rewrite existsb_exists. split.
  - intros (y & Hy & E). apply Nat.eqb_eq in E. subst. exact Hy.
  - intros H. exists x. split; auto. apply Nat.eqb_refl.
Qed.

Lemma esize_pos e : 1 <= esize e.
Proof. destruct e; apply le_n_S, Nat.le_0_l. Qed.

Lemma dedup_In x l : In x (dedup l) <-> In x l.
Proof.
  induction l as [|y l IH]; cbn [dedup]; [tauto|].
  destruct (memb y l) eqn:E.
  - rewrite IH. apply memb_In in E. split; [intros H; right; exact H|]. intros [Hy|H]; [subst; exact E|exact H].
  - cbn [In]. rewrite IH. tauto.
Qed.

Section Diag.
Variable g : rawg.

Definition referenced (n : nat) : Prop := exists d, In d g /\ In n (names_of (snd d)).

(** "used but not defined" = exactly the referenced names without a definition *)
Theorem undefined_exact n : In n (undefined_names g) <-> referenced n /\ defined g n = false.
Proof.
  unfold undefined_names. rewrite dedup_In, filter_In, in_flat_map.
  split.
  - intros [(d & Hd & Hn) Hdef]. split; [exists d; auto|]. destruct (defined g n); [discriminate|reflexivity].
  - intros [(d & Hd & Hn) Hdef]. split; [exists d; auto|]. rewrite Hdef. reflexivity.
Qed.

(** reachability from the first rule through every operator *)
Inductive reach : nat -> Prop :=
| reach_first n0 b0 rest : g = (n0, b0) :: rest -> reach n0
| reach_step m b k : reach m -> lookup_def g m = Some b -> In k (names_of b) -> reach k.

Lemma lookup_def_defined m b : lookup_def g m = Some b -> defined g m = true.
Proof. unfold defined. intros ->. reflexivity. Qed.

Lemma reach_f_sound n : forall e seen,
  (forall k, In k (names_of e) -> reach k) -> (forall k, In k seen -> reach k) ->
  forall k, In k (reach_f g n e seen) -> reach k.
Proof.
  induction n as [|n IH]; intros e seen He Hs; [exact Hs|].
  assert (Hfold : forall es seen0, (forall k, In k (flat_map names_of es) -> reach k) -> (forall k, In k seen0 -> reach k) ->
            forall k, In k (fold_left (fun s x => reach_f g n x s) es seen0) -> reach k).
  { induction es as [|x es IHes]; intros seen0 Hes Hs0; cbn [fold_left flat_map] in *; [exact Hs0|].
    apply IHes; [intros k1 Hk1; apply Hes, in_or_app; right; exact Hk1|].
    apply IH; [intros k1 Hk1; apply Hes, in_or_app; left; exact Hk1|exact Hs0]. }
  destruct e; cbn [reach_f names_of] in *; try exact Hs; try exact (IH _ _ He Hs); try exact (Hfold _ _ He Hs).
  (* EName *)
  destruct (memb r seen) eqn:Em; [exact Hs|].
  assert (Hr : reach r) by (apply He; left; reflexivity).
  assert (Hs' : forall k, In k (r :: seen) -> reach k) by (intros k [<-|Hk]; [exact Hr|exact (Hs k Hk)]).
  destruct (lookup_def g r) as [b|] eqn:El; [|exact Hs'].
  apply IH; [|exact Hs']. intros k1 Hk1. exact (reach_step r b k1 Hr El Hk1).
Qed.

Lemma reached_sound k : In k (reached_names g) -> reach k.
Proof.
  unfold reached_names. destruct g as [|[n0 b0] rest] eqn:Eg; [intros []|].
  intros H. rewrite <- Eg in H. eapply reach_f_sound; [| |exact H].
  - intros k1 [<-|[]]. eapply reach_first. exact Eg.
  - intros k1 [].
Qed.

(** completeness, given the (executable, re-evaluated on every run) closure check *)
Lemma reached_complete s : closed_b g s = true -> forall k, reach k -> In k s.
Proof.
  intros Hc k Hk. induction Hk as [n0 b0 rest Eg|m b k Hm IH Hl Hin].
  - unfold closed_b in Hc. rewrite Eg in Hc. apply andb_true_iff in Hc as [H1 _]. apply memb_In. exact H1.
  - unfold closed_b in Hc. destruct g as [|[n0 b0] rest] eqn:Eg; [discriminate|]. rewrite <- Eg in *.
    apply andb_true_iff in Hc as [_ H2]. rewrite forallb_forall in H2. specialize (H2 m IH).
    rewrite Hl in H2. rewrite forallb_forall in H2. apply memb_In. apply H2. exact Hin.
Qed.

(** "defined but not used" = exactly the defined rules unreachable from the first rule *)
Theorem unused_exact n : closed_b g (reached_names g) = true ->
  (In n (unused_names g) <-> In n (map fst g) /\ ~ reach n).
Proof.
  intros Hc. unfold unused_names. rewrite filter_In, dedup_In. split.
  - intros [Hd Hm]. split; [exact Hd|]. intros Hr.
    pose proof (reached_complete _ Hc n Hr) as Hin. apply memb_In in Hin. rewrite Hin in Hm. discriminate.
  - intros [Hd Hr]. split; [exact Hd|]. destruct (memb n (reached_names g)) eqn:E; [|reflexivity].
    exfalso. apply Hr. apply reached_sound. apply memb_In. exact E.
Qed.

(** duplicates: a name is reported iff it is defined at least twice *)
Lemma dups_of_In x l : In x (dups_of l) <-> exists l1 l2, l = l1 ++ x :: l2 /\ In x l2.
Proof.
  induction l as [|y l IH]; cbn [dups_of].
  - split; [intros []|]. intros (l1 & l2 & E & _). destruct l1; discriminate.
  - destruct (memb y l) eqn:Em.
    + cbn [In]. rewrite IH. split.
      * intros [<-|(l1 & l2 & -> & H)].
        -- exists [], l. split; [reflexivity|]. apply memb_In. exact Em.
        -- exists (y :: l1), l2. auto.
      * intros (l1 & l2 & E & H). destruct l1 as [|z l1]; cbn in E; inv E; [left; reflexivity|].
        right. exists l1, l2. auto.
    + rewrite IH. split.
      * intros (l1 & l2 & -> & H). exists (y :: l1), l2. auto.
      * intros (l1 & l2 & E & H). destruct l1 as [|z l1]; cbn in E; inv E.
        -- apply memb_In in H. congruence.
        -- exists l1, l2. auto.
Qed.

Theorem duplicates_exact n :
  In n (duplicate_names g) <-> exists l1 l2, map fst g = l1 ++ n :: l2 /\ In n l2.
Proof. unfold duplicate_names. rewrite dedup_In. apply dups_of_In. Qed.

End Diag.
