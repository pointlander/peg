(** The left-recursion diagnostic is exact: some "possible infinite left recursion" warning is
    issued iff some rule can reach itself through head positions (least-fixed-point nullability;
    lookahead, ? and * transparent).  Model/Analyses.v: chk_f, nullable, hsub, hstep. *)
From Coq Require Import Relations.
From PegV Require Import Base.Tac Spec.Syntax Model.Analyses Proofs.DiagProofs.

Section LR.
Variable g : rawg.
Notation chk := (chk_f g).
Notation nullable := (nullable g).
Notation hsub := (hsub g).
Notation hstep := (hstep g).

Definition seq_go (f : expr -> bool * list nat) : list expr -> list nat -> bool * list nat :=
  fix go (l : list expr) (w : list nat) : bool * list nat :=
    match l with
    | [] => (false, w)
    | x :: l' => let r := f x in if fst r then (true, w ++ snd r) else go l' (w ++ snd r)
    end.
Definition alt_step (f : expr -> bool * list nat) (acc : bool * list nat) (x : expr) : bool * list nat :=
  let r := f x in (fst acc && fst r, snd acc ++ snd r).

Lemma chk_eq n path e : chk n path e =
  match e with
  | EName m =>
      match lookup_def g m with
      | None => (false, [])
      | Some b => if memb m path then (false, [m])
                  else match n with O => (false, []) | S n' => chk n' (m :: path) b end
      end
  | EAlt es => fold_left (alt_step (chk n path)) es (true, [])
  | ESeq es => seq_go (chk n path) es []
  | EAnd e1 | ENot e1 | EQuery e1 | EStar e1 => (false, snd (chk n path e1))
  | EPlus e1 | EPush e1 => chk n path e1
  | EDot | EChar _ | ERange _ _ => (true, [])
  | _ => (false, [])
  end.
Proof. destruct n; destruct e; reflexivity. Qed.

Lemma flat_map_nil {A B} (f : A -> list B) l : flat_map f l = [] -> forall x, In x l -> f x = [].
Proof.
  induction l as [|y l IH]; intros H x Hx; [destruct Hx|]. cbn [flat_map] in H. apply app_eq_nil in H as [H1 H2].
  destruct Hx as [<-|Hx]; auto.
Qed.

Lemma alt_fold_eq f l : forall acc, fold_left (alt_step f) l acc =
  (fst acc && forallb (fun x => fst (f x)) l, snd acc ++ flat_map (fun x => snd (f x)) l).
Proof.
  induction l as [|y l IH]; intros acc; cbn [fold_left forallb flat_map]; [rewrite andb_true_r, app_nil_r; destruct acc; reflexivity|].
  rewrite IH. unfold alt_step. cbn [fst snd]. rewrite andb_assoc, app_assoc. reflexivity.
Qed.

Lemma seq_go_mono f l : forall w0, exists w', snd (seq_go f l w0) = w0 ++ w'.
Proof.
  induction l as [|x l IH]; intros w0; cbn [seq_go].
  - exists []. cbn. rewrite app_nil_r. reflexivity.
  - destruct (fst (f x)).
    + exists (snd (f x)). reflexivity.
    + destruct (IH (w0 ++ snd (f x))) as (w' & E). exists (snd (f x) ++ w'). rewrite E, app_assoc. reflexivity.
Qed.

Lemma seq_go_fst f l : forall w0, fst (seq_go f l w0) = true -> exists x, In x l /\ fst (f x) = true.
Proof.
  induction l as [|x l IH]; intros w0 H; cbn [seq_go] in H; [discriminate|].
  destruct (fst (f x)) eqn:E; [exists x; split; [left; reflexivity|exact E]|].
  destruct (IH _ H) as (y & Hy & Ey). exists y. split; [right; exact Hy|exact Ey].
Qed.

Lemma seq_go_reach f l1 x l2 : forall w0, snd (seq_go f (l1 ++ x :: l2) w0) = [] ->
  (forall y, In y l1 -> fst (f y) = false) -> snd (f x) = [].
Proof.
  induction l1 as [|y l1 IH]; intros w0 H Hn; cbn [app seq_go] in H.
  - destruct (fst (f x)).
    + cbn [snd] in H. apply app_eq_nil in H. tauto.
    + destruct (seq_go_mono f l2 (w0 ++ snd (f x))) as (w' & E). rewrite E in H.
      apply app_eq_nil in H as [H _]. apply app_eq_nil in H. tauto.
  - rewrite (Hn y (or_introl eq_refl)) in H. eapply IH; [exact H|]. intros z Hz. apply Hn. right. exact Hz.
Qed.


Lemma nullable_not_mc : forall n path e, fst (chk n path e) = true -> nullable e -> False.
Proof.
  induction n as [n IHn] using lt_wf_ind. intros path e.
  induction e using expr_ind2; rewrite chk_eq; intros Hc Hn; cbn [fst] in Hc; try discriminate; inv Hn.
  - (* EName, defined *)
    match goal with H : lookup_def g r = Some _ |- _ => rewrite H in Hc end.
    destruct (memb r path); [discriminate|]. destruct n as [|n']; [discriminate|].
    eapply (IHn n'); eauto.
  - match goal with H : lookup_def g r = None |- _ => rewrite H in Hc end. discriminate.
  - (* ESeq *)
    destruct (seq_go_fst _ _ _ Hc) as (x & Hx & Ex).
    rewrite Forall_forall in H. eapply H; eauto.
    match goal with H : Forall nullable es |- _ => rewrite Forall_forall in H; apply H; exact Hx end.
  - (* EAlt *)
    rewrite alt_fold_eq in Hc. cbn [fst andb] in Hc. rewrite forallb_forall in Hc. rewrite Forall_forall in H. eapply H; eauto.
  - eauto.
  - eauto.
Qed.

(** the last component is the pigeonhole bound: a duplicate-free path of defined names has at most
    [length g] entries, so the fuel, [S (length g)] at the top, is not used up when a rule is entered
    ([fuel_step]) *)
Definition fuel_ok (n : nat) (path : list nat) : Prop :=
  NoDup path /\ (forall m, In m path -> In m (map fst g)) /\ S (length g) <= length path + n.

Fixpoint chain (path : list nat) : Prop :=
  match path with
  | p0 :: ((p1 :: _) as rest) => hstep p1 p0 /\ chain rest
  | _ => True
  end.

Definition at_head (path : list nat) (e : expr) : Prop :=
  match path with
  | [] => True
  | p0 :: _ => exists b, lookup_def g p0 = Some b /\ hsub b e
  end.

Definition cyc : Prop := exists r, clos_trans nat hstep r r.

Lemma lookup_in m b : lookup_def g m = Some b -> In m (map fst g).
Proof.
  induction g as [|[k x] l IH]; cbn [lookup_def map fst]; [discriminate|].
  destruct (Nat.eqb_spec m k) as [->|Hne]; [left; reflexivity|]. intros H. right. apply IH. exact H.
Qed.
Lemma in_lookup m : In m (map fst g) -> exists b, lookup_def g m = Some b.
Proof.
  induction g as [|[k x] l IH]; cbn [lookup_def map fst]; [intros []|].
  destruct (Nat.eqb_spec m k) as [->|Hne]; [eexists; reflexivity|]. intros [E|H]; [congruence|]. apply IH. exact H.
Qed.

Lemma at_head_sub path e e' : at_head path e -> (forall b, hsub b e -> hsub b e') -> at_head path e'.
Proof.
  destruct path as [|p0 rest]; [intros _ _; exact I|]. intros (b0 & Hb0 & Hs) H. exists b0. split; [exact Hb0|exact (H b0 Hs)].
Qed.

Lemma fuel_step n path m b : fuel_ok n path -> memb m path = false -> lookup_def g m = Some b ->
  exists n', n = S n' /\ fuel_ok n' (m :: path).
Proof.
  intros (Hnd & Hin & Hlen) Hm Hb.
  assert (Hnot : ~ In m path) by (intros Hi; apply memb_In in Hi; congruence).
  assert (Hnd' : NoDup (m :: path)) by (constructor; auto).
  assert (Hin' : forall k, In k (m :: path) -> In k (map fst g)).
  { intros k [<-|Hk]; [eapply lookup_in; eauto|auto]. }
  pose proof (NoDup_incl_length Hnd' Hin') as L. rewrite map_length in L. cbn [length] in L.
  destruct n as [|n']; [lia|]. exists n'. split; [reflexivity|]. split; [exact Hnd'|]. split; [exact Hin'|]. cbn [length]. lia.
Qed.

Lemma chain_reach path : forall p0 rest, path = p0 :: rest -> chain path ->
  forall m, In m path -> clos_refl_trans nat hstep m p0.
Proof.
  induction path as [|q path IH]; intros p0 rest E Hc m Hm; [discriminate|]. inv E.
  destruct Hm as [<-|Hm]; [apply rt_refl|].
  destruct rest as [|p1 rest']; [destruct Hm|]. cbn [chain] in Hc. destruct Hc as [Hs Hc].
  eapply rt_trans; [eapply IH; eauto|]. apply rt_step. exact Hs.
Qed.

(** a warning points at a real cycle; without one, the verdict "may not consume" is exact *)
Definition sound_at (f : expr -> bool * list nat) (path : list nat) (x : expr) : Prop :=
  at_head path x -> cyc \/ (snd (f x) = [] /\ (fst (f x) = false -> nullable x)).

Lemma seq_go_sound f path : forall l pre w0, at_head path (ESeq (pre ++ l)) -> Forall nullable pre -> Forall (sound_at f path) l ->
  cyc \/ (snd (seq_go f l w0) = w0 /\ (fst (seq_go f l w0) = false -> Forall nullable l)).
Proof.
  induction l as [|x l IHl]; intros pre w0 Hat Hpre Hl; cbn [seq_go]; [right; split; [reflexivity|constructor]|].
  destruct (Forall_inv Hl (at_head_sub _ _ _ Hat (fun b Hs => hs_seq g b pre x l Hs Hpre))) as [C|[W N]]; [left; exact C|].
  rewrite W, app_nil_r. destruct (fst (f x)); [right; split; [reflexivity|discriminate]|].
  destruct (IHl (pre ++ [x]) w0) as [C|[W2 N2]]; [rewrite <- app_assoc; exact Hat| |exact (Forall_inv_tail Hl)|left; exact C|].
  - apply Forall_app. split; [exact Hpre|]. constructor; [apply N; reflexivity|constructor].
  - right. split; [exact W2|]. intros Hc. constructor; [apply N; reflexivity|apply N2; exact Hc].
Qed.

Lemma alt_sound f path es : at_head path (EAlt es) -> forall l, incl l es -> Forall (sound_at f path) l ->
  cyc \/ (flat_map (fun x => snd (f x)) l = [] /\ (forallb (fun x => fst (f x)) l = false -> exists x, In x l /\ nullable x)).
Proof.
  intros Hat. induction l as [|x l IHl]; intros Hsub Hl; cbn [flat_map forallb]; [right; split; [reflexivity|discriminate]|].
  destruct (Forall_inv Hl (at_head_sub _ _ _ Hat (fun b Hs => hs_alt g b es x Hs (Hsub x (or_introl eq_refl))))) as [C|[W N]]; [left; exact C|].
  destruct (IHl (fun y Hy => Hsub y (or_intror Hy)) (Forall_inv_tail Hl)) as [C|[W2 N2]]; [left; exact C|].
  right. rewrite W, W2. split; [reflexivity|]. intros Hc. apply andb_false_iff in Hc as [A|A].
  - exists x. split; [left; reflexivity|apply N; exact A].
  - destruct (N2 A) as (y & Hy & Ny). exists y. split; [right; exact Hy|exact Ny].
Qed.

(** an operator that the walk passes through: the warnings are the operand's, [v] is the operator's verdict *)
Lemma sound_under f path e e' (v : bool) :
  (forall b, hsub b e' -> hsub b e) -> sound_at f path e -> ((fst (f e) = false -> nullable e) -> v = false -> nullable e') ->
  at_head path e' -> cyc \/ (snd (f e) = [] /\ (v = false -> nullable e')).
Proof.
  intros Hs H Hn Hat. destruct (H (at_head_sub _ _ _ Hat Hs)) as [C|[W N]]; [left; exact C|right; split; [exact W|exact (Hn N)]].
Qed.

Lemma chk_sound : forall n path e, fuel_ok n path -> chain path -> sound_at (chk n path) path e.
Proof.
  induction n as [n IHn] using lt_wf_ind. intros path e Hf Hch.
  induction e using expr_ind2; intros Hat; rewrite chk_eq; cbn [fst snd];
    try (right; split; [reflexivity|intros _; constructor]; fail);
    try (right; split; [reflexivity|discriminate]; fail).
  - (* EName *)
    destruct (lookup_def g r) as [b|] eqn:Eb; [|right; split; [reflexivity|intros _; apply nl_undef; exact Eb]].
    destruct (memb r path) eqn:Em.
    + (* r is on the path; [at_head (p0 :: _) (EName r)] is [hstep p0 r] unfolded *)
      left. apply memb_In in Em. destruct path as [|p0 rest]; [destruct Em|]. exists r.
      apply clos_rt_t with p0; [eapply chain_reach; eauto|]. apply t_step. exact Hat.
    + destruct (fuel_step _ _ _ _ Hf Em Eb) as (n' & -> & Hf').
      destruct (IHn n' (Nat.lt_succ_diag_r _) (r :: path) b Hf') as [C|[W N]]; [| |left; exact C|].
      * destruct path as [|p0 rest]; [exact I|]. exact (conj Hat Hch).
      * exists b. split; [exact Eb|apply hs_refl].
      * right. split; [exact W|]. intros Hc. eapply nl_name; eauto.
  - (* ESeq *)
    destruct (seq_go_sound (chk n path) path es [] [] Hat (Forall_nil _) H) as [C|[W N]]; [left; exact C|].
    right. split; [exact W|]. intros Hc. apply nl_seq, N, Hc.
  - (* EAlt *)
    rewrite alt_fold_eq. cbn [fst snd andb app].
    destruct (alt_sound (chk n path) path es Hat es (incl_refl es) H) as [C|[W N]]; [left; exact C|].
    right. split; [exact W|]. intros Hc. destruct (N Hc) as (x & Hx & Nx). eapply nl_alt; eauto.
  - (* EAnd, ENot, EQuery, EStar: the verdict is "may not consume" whatever is inside *)
    exact (sound_under _ _ _ _ _ (fun b => hs_and g b e) IHe (fun _ _ => nl_and g e) Hat).
  - exact (sound_under _ _ _ _ _ (fun b => hs_not g b e) IHe (fun _ _ => nl_not g e) Hat).
  - exact (sound_under _ _ _ _ _ (fun b => hs_query g b e) IHe (fun _ _ => nl_query g e) Hat).
  - exact (sound_under _ _ _ _ _ (fun b => hs_star g b e) IHe (fun _ _ => nl_star g e) Hat).
  - (* EPlus, EPush: the verdict of what is inside *)
    exact (sound_under _ _ _ _ _ (fun b => hs_plus g b e) IHe (fun N Hc => nl_plus g e (N Hc)) Hat).
  - exact (sound_under _ _ _ _ _ (fun b => hs_push g b e) IHe (fun N Hc => nl_push g e (N Hc)) Hat).
Qed.


(** without warnings, everything reachable in head position was visited *)
Lemma chk_visits n path e : forall e', hsub e e' -> snd (chk n path e) = [] -> snd (chk n path e') = [].
Proof.
  intros e' Hs. induction Hs as [|es x Hs IH Hx|l1 x l2 Hs IH Hn|e1 Hs IH|e1 Hs IH|e1 Hs IH|e1 Hs IH|e1 Hs IH|e1 Hs IH]; intros H0; [exact H0|..];
    specialize (IH H0); rewrite chk_eq in IH; try exact IH.
  - rewrite alt_fold_eq in IH. exact (flat_map_nil _ _ IH x Hx).
  - eapply seq_go_reach; [exact IH|].
    intros y Hy. rewrite Forall_forall in Hn. destruct (fst (chk n path y)) eqn:E; [|reflexivity].
    exfalso. eapply nullable_not_mc; eauto.
Qed.

(** a clean walk of the body of [k] has looked up every [t] that [k] can call in head position *)
Lemma hstep_visits n path k t b : hstep k t -> lookup_def g k = Some b -> snd (chk n path b) = [] ->
  snd (chk n path (EName t)) = [].
Proof. intros (b0 & Hb0 & Hs) Hb H0. rewrite Hb in Hb0. inv Hb0. exact (chk_visits n path b0 _ Hs H0). Qed.

Lemma t1n_defined k t : clos_trans_1n nat hstep k t -> exists b, lookup_def g k = Some b.
Proof. inversion 1 as [y (b & E & _)|y z (b & E & _) _]; eauto. Qed.

Lemma walk_warns : forall k t, clos_trans_1n nat hstep k t ->
  forall n path b, lookup_def g k = Some b -> snd (chk n (k :: path) b) = [] -> fuel_ok n (k :: path) ->
  In t (k :: path) -> False.
Proof.
  induction 1 as [k t Hst|k k1 t Hst Hrest IH]; intros n path b Hb H0 Hf Ht.
  - pose proof (hstep_visits n (k :: path) k t b Hst Hb H0) as V. rewrite chk_eq in V.
    destruct Hf as (_ & Hin & _). destruct (in_lookup t (Hin t Ht)) as (bt & Ebt). rewrite Ebt in V.
    apply memb_In in Ht. rewrite Ht in V. discriminate.
  - pose proof (hstep_visits n (k :: path) k k1 b Hst Hb H0) as V. rewrite chk_eq in V.
    destruct (t1n_defined k1 t Hrest) as (b1 & Eb1). rewrite Eb1 in V.
    destruct (memb k1 (k :: path)) eqn:Em; [discriminate|].
    destruct (fuel_step _ _ _ _ Hf Em Eb1) as (n' & -> & Hf').
    eapply (IH n' (k :: path) b1 Eb1 V Hf'). right. exact Ht.
Qed.

Lemma fuel_top : fuel_ok (S (length g)) [].
Proof. split; [constructor|]. split; [intros m []|]. cbn. lia. Qed.

Theorem leftrec_exact : leftrec_warnings g <> [] <-> exists r, clos_trans nat hstep r r.
Proof.
  split.
  - intros Hw. destruct (leftrec_warnings g) as [|w ws] eqn:E; [congruence|].
    assert (Hin : In w (leftrec_warnings g)) by (rewrite E; left; reflexivity). apply in_flat_map in Hin as (d & Hd & Hin).
    destruct (chk_sound (S (length g)) [] (EName (fst d)) fuel_top I I) as [C|[W _]]; [exact C|rewrite W in Hin; destruct Hin].
  - intros (r & Hc) Hw. apply clos_trans_t1n in Hc.
    destruct (t1n_defined r r Hc) as (b & Eb). destruct (proj1 (in_map_iff _ _ _) (lookup_in _ _ Eb)) as (d & Ed & Hd).
    pose proof (flat_map_nil _ _ Hw d Hd) as W. cbn beta in W. rewrite Ed in W. rewrite chk_eq in W. rewrite Eb in W.
    cbn [memb existsb] in W.
    destruct (fuel_step _ _ _ _ fuel_top eq_refl Eb) as (n' & En & Hf'). assert (n' = length g) by lia. subst n'.
    eapply (walk_warns r r Hc (length g) [] b Eb W Hf'). left. reflexivity.
Qed.

End LR.
