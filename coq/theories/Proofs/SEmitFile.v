(** The generated file as a whole: the two passes of the emitter (a dry pass that finds the labels jumped to,
    then the real one) produce a table of rule functions that meets [table_ok] of Proofs/SEmitSound.v, so every
    rule function of the file, run under the goto semantics of Model/Exec.v, does what the machine does
    ([emitted_table_ok], [emitted_file_sound]).  Section EndToEnd composes this with the simulation of the
    semantics by the machine (Proofs/Sim.v, Proofs/SimNoast.v, Proofs/Top.v): what the entry rule's function
    returns in a reset parser is what the machine returns, hence what the PEG semantics gives, in every
    execution and whatever the memo / inline setting ([generated_code_runs], [generated_code_is_peg] and their
    corollaries; [generated_code_noast] for the parser built with -noast). *)
From PegV Require Import Base.Tac Base.ListX Spec.Syntax Spec.Peg Model.Machine Model.Analyses Model.Gen Model.Emit Model.SEmit Model.Exec
  Proofs.EmitWF Proofs.ExecDet Proofs.SEmitSound Proofs.Sim Proofs.SimNoast Proofs.AsuSound Proofs.Top.
From Coq Require Import Bool.
Import ListNotations.

(** the machine's inline table is the emitter's test, except that the first rule is never "compiled in place":
    it always has a function (its count includes the parser's own reference) *)
Lemma inline_table_S inline g r : nth (S r) (inline_table inline g) false = Emit.once inline (count_rules g) (S r).
Proof.
  unfold inline_table, Emit.once. destruct inline; cbn [andb]; [|apply nth_map_const].
  destruct (snd (count_rules g)) as [|c cs]; [reflexivity|]. cbn [map nth].
  apply (map_nth (fun c => c =? 1) cs 0 r).
Qed.
Lemma inline_table_0 inline g : nth 0 (inline_table inline g) false = false.
Proof.
  unfold inline_table. destruct inline; [|apply nth_map_const]. destruct (map _ _); reflexivity.
Qed.

(** the first rule always has a function, and without -inline every rule has *)
Lemma slot_ok_start g inline : slot_ok g inline 0.
Proof. apply inline_table_0. Qed.
Lemma slot_ok_noinline g r : slot_ok g false r.
Proof. apply nth_map_const. Qed.

Section Table.
Variable g : grammar.
Variable ptx : nat.
Variable ast memo inline : bool.
Variable asu : nat -> bool.

Let cr := count_rules g.
Let fl := fuel g.
Let dj := dry_jumps_of g ast inline asu (fun _ => false) cr fl.
Let used := used_of dj.
Notation once := (Emit.once inline cr).
Notation reached := (Emit.reached cr).

(** the machine's options (Model/Gen.v mk_opts, with the always-succeeds table as a parameter) *)
Definition emit_opts : opts := mkopts ast memo (fun r => nth r (inline_table inline g) false) asu.
Definition emitted_fn (r : nat) : option (list scode) :=
  match nth_error (semit_all g ptx ast inline asu (fun _ => false)) r with Some (Some b) => Some b | _ => None end.

Notation spass := (SEmit.spass g ptx ast inline asu (fun _ : nat => false) cr fl).
Notation srule := (SEmit.srule_emit g ptx ast once asu).

(** [pass] (Model/Emit.v) writes no function for a rule counted once unless its failure label is 0 ([negb (ko =? 0)]),
    and only the first rule of the file has that label: hence the second alternative, for the head of [rs] at label 0 *)
Lemma spass_nth real u rs : forall r0 l i b,
  nth_error rs i = Some b -> b <> RNil -> reached (r0 + i) = true -> (once (r0 + i) = false \/ (i = 0 /\ l = 0)) ->
  exists ko, nth_error (spass real u rs r0 l) i = Some (Some (fst (srule u fl (r0 + i) ko))).
Proof.
  induction rs as [|rb rs IH]; intros r0 l i b Hi Hb Hr Ho; [destruct i; discriminate|].
  destruct i as [|i].
  - cbn in Hi. inv Hi. rewrite Nat.add_0_r in *. cbn [SEmit.spass].
    replace (match b with RNil => if false then real else true | _ => false end) with false by (destruct b; [reflexivity|reflexivity|congruence]).
    rewrite Hr. cbn [negb].
    replace (once r0 && negb (l =? 0))%bool with false by (destruct Ho as [->|[_ ->]]; [reflexivity|rewrite andb_false_r; reflexivity]).
    exists l. destruct (srule u fl r0 l) as [c l1]. reflexivity.
  - cbn [nth_error] in Hi. replace (r0 + S i) with (S r0 + i) in * by lia.
    assert (Ho' : forall l', once (S r0 + i) = false \/ (i = 0 /\ l' = 0)) by (intros l'; destruct Ho as [H|[H _]]; [left; exact H|discriminate]).
    cbn [SEmit.spass].
    destruct (match rb with RNil => if false then real else true | _ => false end); [apply (IH (S r0) _ i b Hi Hb Hr (Ho' _))|].
    destruct (negb (reached r0)); [apply (IH (S r0) _ i b Hi Hb Hr (Ho' _))|].
    destruct (once r0 && negb (l =? 0))%bool; [apply (IH (S r0) _ i b Hi Hb Hr (Ho' _))|].
    destruct (srule u fl r0 l) as [c l1]. apply (IH (S r0) _ i b Hi Hb Hr (Ho' _)).
Qed.
Lemma real_jumps_used r body j :
  nth_error (semit_all g ptx ast inline asu (fun _ => false)) r = Some (Some body) -> In j (sjumps body) -> used j = true.
Proof.
  intros Hn Hj.
  assert (Ej : all_jumps (emit_all g ast inline asu (fun _ => false)) = dj).
  { unfold emit_all, dj, dry_jumps_of. apply all_jumps_map. apply pass_same. }
  unfold used, used_of. apply existsb_exists. exists j. split; [|apply Nat.eqb_refl].
  rewrite <- Ej, <- forget_semit_all with (ptx := ptx). unfold all_jumps. apply in_flat_map.
  exists (Some (forget body)). split; [|rewrite (proj2 (forget_marks body)); exact Hj].
  apply in_map_iff. exists (Some body). split; [reflexivity|]. eapply nth_error_In. exact Hn.
Qed.

Theorem emitted_table_ok : deep_table_b g inline = true -> table_ok g ptx emit_opts once used emitted_fn reached fl.
Proof.
  intros Hd r Hinl Hre (b & Hb & Hne).
  assert (Hon : once (0 + r) = false \/ (r = 0 /\ 0 = 0)).
  { destruct r as [|r]; [right; split; reflexivity|left]. cbn [o_inline emit_opts] in Hinl. rewrite inline_table_S in Hinl. exact Hinl. }
  destruct (spass_nth true used g 0 0 r b Hb Hne Hre Hon) as (ko & Hn). cbn [Nat.add] in Hn.
  exists ko. destruct (srule used fl r ko) as [body lb] eqn:Es. cbn [fst] in Hn. exists body, lb.
  assert (Hn' : nth_error (semit_all g ptx ast inline asu (fun _ => false)) r = Some (Some body)) by exact Hn.
  split; [unfold emitted_fn; rewrite Hn'; reflexivity|]. split; [exact Es|]. split.
  - unfold deep_table_b in Hd. cbv zeta in Hd. rewrite forallb_forall in Hd.
    assert (Hlt : r < length g) by (apply nth_error_Some; rewrite Hb; discriminate).
    specialize (Hd r ltac:(apply in_seq; lia)). cbv beta in Hd. fold cr in Hd. cbn [o_inline emit_opts] in Hinl.
    rewrite Hre, Hinl, Hb in Hd. cbn [andb negb implb] in Hd. fold fl in Hd. destruct b; [exact Hd|exact Hd|congruence].
  - intros j Hj. exact (real_jumps_used r body j Hn' Hj).
Qed.

(** The generated file implements the machine: every rule function of the file (the statements [semit_all]
    writes, which [forget] maps onto the skeleton the correspondence check reads back from the Go file), called
    in any state under the goto semantics of Model/Exec.v, returns what the machine's rule function returns -
    same verdict, same position, tokens, memo table, text register and action log - and crashes only where the
    machine says the generated code panics. *)
Theorem emitted_file_sound buf penv : deep_table_b g inline = true ->
  forall n r m res, o_inline emit_opts r = false -> reached r = true -> (exists b, nth_error g r = Some b /\ b <> RNil) ->
  rule_fn g emit_opts (run_f g ptx buf penv emit_opts n) r m = Some res ->
  xcall buf penv emit_opts emitted_fn r m res.
Proof.
  intros Hd n r m res Ho Hr Hex R.
  exact (rule_function_sound g ptx buf penv emit_opts once used emitted_fn reached fl (emitted_table_ok Hd) n r m res Ho Hr Hex R).
Qed.

End Table.
Print Assumptions emitted_file_sound.

Section EndToEnd.
Variable g : grammar.
Variable ptx : nat.
Variable buf : list rune.
Variable penv : nat -> nat -> bool.
Hypothesis Hg : good_grammar g.
Hypothesis Hbuf : good_buf buf.
Hypothesis Hsw : good_switches g.

Definition gen_asu (r : nat) : bool := nth r (map (fun r => asu_rule g r) (seq 0 (length g))) false.
Definition gen_fn (inline : bool) : nat -> option (list scode) := emitted_fn g ptx true inline gen_asu.

Lemma mk_opts_emit memo inline : mk_opts true memo inline g = emit_opts g true memo inline gen_asu.
Proof. reflexivity. Qed.

Lemma entry_fn_correct memo inline n r st0 rr :
  peg_parse g ptx buf penv (S n) r = Some rr ->
  simr g ptx buf penv [] zero_tok rr
       (rule_fn g (mk_opts true memo inline g) (run_f g ptx buf penv (mk_opts true memo inline g) n) r (reset st0)).
Proof.
  intros H. set (o := mk_opts true memo inline g).
  pose proof (gen_asu_sound g ptx buf penv (o_ast o) (o_memo o) inline) as Hasu'.
  set (st := reset st0).
  assert (Hok : okst buf st) by (unfold okst, st, reset; cbn; lia).
  assert (Hm : memo_ok g ptx buf penv st) by (intros r' p' m' Hl; discriminate).
  exact (rule_fn_sim g ptx buf penv o eq_refl Hg (Hsw inline) n (sim g ptx buf penv o eq_refl Hg (Hsw inline) Hasu' Hbuf n) r st rr Hok Hm H).
Qed.

(** The entry's function of the generated file, called in a reset parser, has an execution; it returns what the
    machine returns, and (the goto semantics being deterministic, Proofs/ExecDet.v) no execution returns anything
    else - in particular none crashes.  Every machine-level theorem (verdict, tokens, actions, syntax tree, error
    token, reuse) is thereby a theorem about the statements of the generated file. *)
Theorem generated_code_runs memo inline n r st0 rr :
  deep_table_b g inline = true -> slot_ok g inline r -> reached (count_rules g) r = true ->
  peg_parse g ptx buf penv (S n) r = Some rr ->
  exists b st', machine g ptx buf penv memo inline (S n) r st0 = Some (Ret b st') /\
    xcall buf penv (mk_opts true memo inline g) (gen_fn inline) r (reset st0) (Ret b st') /\
    forall res, xcall buf penv (mk_opts true memo inline g) (gen_fn inline) r (reset st0) res -> res = Ret b st'.
Proof.
  intros Hd Hs Hr H. set (o := mk_opts true memo inline g).
  pose proof (entry_fn_correct memo inline n r st0 rr H) as S1. fold o in S1.
  destruct (parse_slot g ptx buf penv n r rr H) as (rb & Erb & Hnn).
  assert (Hent : machine g ptx buf penv memo inline (S n) r st0 = call_run g o (run_f g ptx buf penv o n) r (reset st0)).
  { unfold machine. fold o. rewrite (entry_run g ptx buf penv o n r _ rr H Hs). cbn [run_f]. change (o_inline o r = false) in Hs. rewrite Hs. reflexivity. }
  (* a call emitted without its failure branch ([o_asu]) cannot fail: the two forms of call return the same *)
  assert (K : exists b st', rule_fn g o (run_f g ptx buf penv o n) r (reset st0) = Some (Ret b st') /\ (o_asu o r = true -> b = true)).
  { destruct rr as [[|p f] evs]; cbn [simr] in S1; destruct S1 as (st' & R & _); eexists _, st'; (split; [exact R|]); [|reflexivity].
    intros Ha. exfalso. eapply (asu_rule_sound g ptx buf penv r); [|exact H]. unfold o, mk_opts in Ha. cbn [o_asu] in Ha. apply nth_map_seq in Ha. exact Ha. }
  destruct K as (b & st' & R & Ha).
  assert (Hx0 : xcall buf penv o (gen_fn inline) r (reset st0) (Ret b st')).
  { unfold o in *. rewrite mk_opts_emit in *. exact (emitted_file_sound g ptx true memo inline gen_asu buf penv Hd n r _ _ Hs Hr (ex_intro _ rb (conj Erb Hnn)) R). }
  exists b, st'. split; [|split; [exact Hx0|intros res Hx; exact (xcall_det _ _ _ _ _ _ _ _ Hx Hx0)]].
  rewrite Hent. unfold call_run. rewrite R. destruct (o_asu o r); [rewrite (Ha eq_refl)|]; reflexivity.
Qed.

Corollary generated_code_is_machine memo inline n r st0 rr :
  deep_table_b g inline = true -> slot_ok g inline r -> reached (count_rules g) r = true ->
  peg_parse g ptx buf penv (S n) r = Some rr ->
  forall res, xcall buf penv (mk_opts true memo inline g) (gen_fn inline) r (reset st0) res ->
    machine g ptx buf penv memo inline (S n) r st0 = Some res /\ res <> Crash.
Proof.
  intros Hd Hs Hr H res Hx. destruct (generated_code_runs memo inline n r st0 rr Hd Hs Hr H) as (b & st' & M & _ & U).
  rewrite (U res Hx). split; [exact M|discriminate].
Qed.

(** The generated Go code computes the PEG semantics.  For every grammar the generator handles, every input,
    memo / inline setting and entry rule that has a function: whenever the semantics has a result, calling the
    entry's function in a reset parser - the statements of the generated file under the goto semantics of
    Model/Exec.v - returns it: true at the same offset with the derivation's tokens, or false with the error
    token the semantics gives.  [deep_table_b] (Model/SEmit.v) is the decidable side condition on the grammar;
    the correspondence run evaluates it for every grammar it generates. *)
Theorem generated_code_is_peg memo inline n r st0 rr :
  deep_table_b g inline = true -> slot_ok g inline r -> reached (count_rules g) r = true ->
  peg_parse g ptx buf penv (S n) r = Some rr ->
  exists res, xcall buf penv (mk_opts true memo inline g) (gen_fn inline) r (reset st0) res /\
    match rr with
    | (Succ p f, _) => exists st', res = Ret true st' /\ pos st' = p /\ live st' = Syntax.flat f
    | (Fail, evs) => exists st', res = Ret false st' /\ maxtok st' = first_furthest evs
    end.
Proof.
  intros Hd Hs Hr H. destruct (generated_code_runs memo inline n r st0 rr Hd Hs Hr H) as (b & st' & M & Hx & _).
  exists (Ret b st'). split; [exact Hx|].
  pose proof (machine_correct g ptx buf penv Hg Hbuf Hsw memo inline (S n) r st0 rr Hs H) as P. unfold machine in M.
  destruct rr as [[|p f] evs]; cbn [parse_spec] in P.
  - destruct P as (s & R & Mx). rewrite M in R. inv R. eauto.
  - destruct P as (s & R & Px & _ & L & _). rewrite M in R. inv R. eauto.
Qed.

Corollary generated_code_every_execution memo inline n r st0 rr :
  deep_table_b g inline = true -> slot_ok g inline r -> reached (count_rules g) r = true ->
  peg_parse g ptx buf penv (S n) r = Some rr ->
  forall res, xcall buf penv (mk_opts true memo inline g) (gen_fn inline) r (reset st0) res ->
    match rr with
    | (Succ p f, _) => exists st', res = Ret true st' /\ pos st' = p /\ live st' = Syntax.flat f
    | (Fail, evs) => exists st', res = Ret false st' /\ maxtok st' = first_furthest evs
    end.
Proof.
  intros Hd Hs Hr H res Hx. destruct (generated_code_is_peg memo inline n r st0 rr Hd Hs Hr H) as (res0 & Hx0 & Hspec).
  rewrite (xcall_det _ _ _ _ _ _ _ _ Hx Hx0). exact Hspec.
Qed.

(** memoisation and -inline are invisible in what the generated code returns: two files generated for the same tree
    under different settings, run from any two earlier states, agree on verdict, offset, tokens and error token *)
Corollary generated_code_options_invisible memo1 inline1 memo2 inline2 n r st1 st2 rr :
  deep_table_b g inline1 = true -> slot_ok g inline1 r ->
  deep_table_b g inline2 = true -> slot_ok g inline2 r ->
  reached (count_rules g) r = true -> peg_parse g ptx buf penv (S n) r = Some rr ->
  forall res1 res2,
    xcall buf penv (mk_opts true memo1 inline1 g) (gen_fn inline1) r (reset st1) res1 ->
    xcall buf penv (mk_opts true memo2 inline2 g) (gen_fn inline2) r (reset st2) res2 ->
    exists b s1 s2, res1 = Ret b s1 /\ res2 = Ret b s2 /\
      (b = true -> pos s1 = pos s2 /\ live s1 = live s2) /\ (b = false -> maxtok s1 = maxtok s2).
Proof.
  intros Hd1 Hs1 Hd2 Hs2 Hr H res1 res2 X1 X2.
  destruct (generated_code_is_machine memo1 inline1 n r st1 rr Hd1 Hs1 Hr H res1 X1) as [M1 _].
  destruct (generated_code_is_machine memo2 inline2 n r st2 rr Hd2 Hs2 Hr H res2 X2) as [M2 _].
  destruct rr as [res evs].
  destruct (machines_agree g g ptx buf penv Hg Hsw Hg Hsw Hbuf memo1 inline1 memo2 inline2 (S n) r st1 st2 res evs evs Hs1 Hs2 H H)
    as (b & s1 & s2 & R1 & R2 & A & B).
  exists b, s1, s2. split; [congruence|]. split; [congruence|]. auto.
Qed.

(** -noast: the same for the parser without a token tree, whose actions are pasted into the rule functions
    ([SLogAct k]: the text of action k runs there and then; the model logs (k, text register)) and whose captures
    set the text register ([SCapture]).  The functions of the generated file return the verdict and the offset of
    the semantics, and the actions have run in the order of Execute's loop over every event of the attempt. *)
Definition gen_fn_noast (inline : bool) : nat -> option (list scode) := emitted_fn g ptx false inline gen_asu.

Theorem generated_code_noast inline n r st0 rr :
  (forall rb, nth_error g ptx = Some rb -> rb = RNil) ->
  deep_table_b g inline = true -> o_inline (mk_opts false false inline g) r = false -> reached (count_rules g) r = true ->
  peg_parse g ptx buf penv (S n) r = Some rr ->
  exists st', xcall buf penv (mk_opts false false inline g) (gen_fn_noast inline) r (reset st0)
                    (Ret (match fst rr with Fail => false | Succ _ _ => true end) st') /\
    alog st' = Runtime.execute g ptx (snd rr) (text st0) /\
    match fst rr with Succ p _ => pos st' = p /\ p <= length buf | Fail => True end.
Proof.
  intros Hptx Hd Hs Hr H. set (o := mk_opts false false inline g).
  pose proof (gen_asu_sound g ptx buf penv (o_ast o) (o_memo o) inline) as Hasu'.
  set (st := reset st0).
  assert (Hp : pos st <= length buf) by (unfold st, reset; cbn; lia).
  pose proof (rule_fn_simn g ptx buf penv o eq_refl Hg (Hsw inline) Hptx n
                (simN g ptx buf penv o eq_refl Hg (Hsw inline) Hasu' Hbuf Hptx n) r st rr Hp H) as (st' & R & T & L & P).
  exists st'. split; [|split; [exact L|exact P]].
  exact (emitted_file_sound g ptx false false inline gen_asu buf penv Hd n r _ _ Hs Hr (parse_slot g ptx buf penv n r rr H) R).
Qed.

End EndToEnd.
Print Assumptions generated_code_is_peg.
Print Assumptions generated_code_noast.
