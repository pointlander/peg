(** C10: the builder calls made for any well-formed surface expression leave exactly one node on the
    stack, whatever was below (stack discipline); escape decoding is exact. *)
From PegV Require Import Base.Tac Base.ListX Spec.Syntax Model.Front.
Open Scope Z_scope.

Section SxInd.
Variable P : sx -> Prop.
Hypothesis HLeaf : forall t, (match t with XDot | XName _ | XAct _ | XPred _ | XState _ | XNil | XLit _ | XILit _ | XClass _ _ _ => True | _ => False end) -> P t.
Hypothesis HSeq : forall l, Forall P l -> P (XSeq l).
Hypothesis HAlt : forall l t, Forall P l -> P (XAlt l t).
Hypothesis HAnd : forall e, P e -> P (XAnd e).
Hypothesis HNot : forall e, P e -> P (XNot e).
Hypothesis HQuery : forall e, P e -> P (XQuery e).
Hypothesis HStar : forall e, P e -> P (XStar e).
Hypothesis HPlus : forall e, P e -> P (XPlus e).
Hypothesis HPush : forall e, P e -> P (XPush e).
Hypothesis HGroup : forall e, P e -> P (XGroup e).
Fixpoint sx_ind2 (t : sx) : P t :=
  match t with
  | XSeq l => HSeq l (Forall_all P sx_ind2 l)
  | XAlt l t => HAlt l t (Forall_all P sx_ind2 l)
  | XAnd e => HAnd e (sx_ind2 e) | XNot e => HNot e (sx_ind2 e) | XQuery e => HQuery e (sx_ind2 e)
  | XStar e => HStar e (sx_ind2 e) | XPlus e => HPlus e (sx_ind2 e) | XPush e => HPush e (sx_ind2 e) | XGroup e => HGroup e (sx_ind2 e)
  | t => HLeaf t I
  end.
End SxInd.

Definition pushes1 (ops : list bop) : Prop := exists e, forall stk, brun ops stk = Some (e :: stk).
(** the one node is a character: the range builders need that *)
Definition pushes_char (ops : list bop) : Prop := exists c, forall stk, brun ops stk = Some (EChar c :: stk).

Lemma brun_app a b stk : brun (a ++ b) stk = match brun a stk with Some s => brun b s | None => None end.
Proof. revert stk; induction a as [|o a IH]; intros stk; cbn [app brun]; [reflexivity|]. destruct (bstep stk o); auto. Qed.

Lemma char_ops_char c : pushes_char (char_ops c).
Proof. destruct c; cbn [char_ops]; eexists; intros stk; reflexivity. Qed.
Lemma pushes_char_1 ops : pushes_char ops -> pushes1 ops.
Proof. intros (c & H). exists (EChar c). exact H. Qed.
Lemma dchar_ops_1 c : pushes1 (dchar_ops c).
Proof.
  destruct c as [v| |]; cbn [dchar_ops]; [destruct (is_letter v)|..]; try (eexists; intros stk; reflexivity).
Qed.

Lemma chain_pushes1 op parts :
  (op = BSequence \/ op = BAlternate) -> parts <> [] -> Forall pushes1 parts -> pushes1 (chain_ops op parts).
Proof.
  intros Hop Hne Hall. destruct parts as [|p ps]; [contradiction|]. cbn [chain_ops].
  pose proof (Forall_inv Hall) as Hp. pose proof (Forall_inv_tail Hall) as Hps. clear Hall Hne.
  revert p Hp. induction ps as [|q ps IH]; intros p Hp; cbn [flat_map].
  - rewrite app_nil_r. exact Hp.
  - pose proof (Forall_inv Hps) as Hq. pose proof (Forall_inv_tail Hps) as Hps'.
    destruct Hp as (e1 & E1). destruct Hq as (e2 & E2).
    assert (Hpq : pushes1 (p ++ q ++ [op])).
    { destruct Hop as [-> | ->]; eexists; intros stk; rewrite brun_app, E1, brun_app, E2; cbn [brun bstep]; reflexivity. }
    specialize (IH Hps' (p ++ q ++ [op]) Hpq). rewrite <- !app_assoc in IH. rewrite <- app_assoc. exact IH.
Qed.

Lemma item_ops_1 insens i : pushes1 (item_ops insens i).
Proof.
  destruct i as [c|lo hi]; cbn [item_ops].
  - destruct insens; [apply dchar_ops_1|apply pushes_char_1, char_ops_char].
  - destruct (char_ops_char lo) as (a & Ea). destruct (char_ops_char hi) as (b & Eb).
    destruct insens; eexists; intros stk; rewrite brun_app, Ea, brun_app, Eb; cbn [brun bstep]; reflexivity.
Qed.

Lemma pushes1_snoc ops o : pushes1 ops -> In o [BPeekFor; BPeekNot; BQuery; BStar; BPlus; BPush] -> pushes1 (ops ++ [o]).
Proof.
  intros (e & E) Hin. cbn [In] in Hin.
  destruct Hin as [<-|[<-|[<-|[<-|[<-|[<-|[]]]]]]]; eexists; intros stk; rewrite brun_app, E; cbn [brun bstep]; reflexivity.
Qed.

Theorem builder_stack_discipline t : sx_ok t = true -> pushes1 (ops_of t).
Proof.
  induction t as [t Ht|l H|l t H|e IH|e IH|e IH|e IH|e IH|e IH|e IH] using sx_ind2; cbn [sx_ok ops_of]; intros Hok.
  (* the group; the six operators with one operand *)
  10: auto.
  4-9: (apply pushes1_snoc; auto; cbn; auto 10).
  - (* no operand: one builder call, but for literals and classes *)
    destruct t; try destruct Ht; cbn [ops_of]; try (eexists; intros stk; reflexivity).
    + (* XLit *) destruct cs as [|c cs]; [eexists; intros stk; reflexivity|]. apply chain_pushes1; auto; [discriminate|].
      apply Forall_map, Forall_forall. intros x _. apply pushes_char_1, char_ops_char.
    + (* XILit *) destruct cs as [|c cs]; [eexists; intros stk; reflexivity|]. apply chain_pushes1; auto; [discriminate|].
      apply Forall_map, Forall_forall. intros x _. apply dchar_ops_1.
    + (* XClass *) destruct items as [|i items]; [destruct neg; [discriminate|eexists; intros stk; reflexivity]|].
      assert (Hc : pushes1 (chain_ops BAlternate (map (item_ops insens) (i :: items)))).
      { apply chain_pushes1; auto; [discriminate|]. apply Forall_map, Forall_forall. intros x _. apply item_ops_1. }
      destruct neg; [|rewrite app_nil_r; exact Hc].
      destruct Hc as (e & E). eexists. intros stk. rewrite brun_app, E. cbn [brun bstep add_list_seq]. reflexivity.
  - (* XSeq *) destruct l as [|x l]; [discriminate|]. apply andb_true_iff in Hok as [_ Hok].
    apply chain_pushes1; auto; [discriminate|].
    apply Forall_map. rewrite forallb_forall in Hok. rewrite Forall_forall in *. intros y Hy. apply H; auto.
  - (* XAlt *) destruct l as [|x l]; [discriminate|]. apply andb_true_iff in Hok as [_ Hok].
    assert (Hc : pushes1 (chain_ops BAlternate (map ops_of (x :: l)))).
    { apply chain_pushes1; auto; [discriminate|].
      apply Forall_map. rewrite forallb_forall in Hok. rewrite Forall_forall in *. intros y Hy. apply H; auto. }
    destruct t; [|rewrite app_nil_r; exact Hc].
    destruct Hc as (e & E). eexists. intros stk. rewrite brun_app, E. cbn [brun bstep]. reflexivity.
Qed.

Corollary elab_defined t : sx_ok t = true -> exists e, elab t = Some e.
Proof. intros H. destruct (builder_stack_discipline t H) as (e & E). exists e. unfold elab. rewrite E. reflexivity. Qed.

Definition valid_scalar (v : Z) : Prop := 0 <= v <= 1114111 /\ ~ (55296 <= v <= 57343).

Lemma digits_value_nonneg base ds : 0 <= base -> Forall (fun d => 0 <= d) ds -> forall a, 0 <= a -> 0 <= fold_left (fun a d => a * base + d) ds a.
Proof. intros Hb H. induction H as [|d ds Hd Hds IH]; intros a Ha; cbn [fold_left]; [exact Ha|]. apply IH. nia. Qed.

(** \0x hex: every spelling whose value is a Unicode scalar value denotes exactly that code point *)
Theorem hex_exact ds : valid_scalar (digits_value 16 ds) -> add_hexa ds = digits_value 16 ds.
Proof.
  intros [[H0 H1] Hs]. unfold add_hexa, parse_int, to_rune.
  replace (2 ^ (32 - 1) - 1) with 2147483647 by reflexivity. rewrite Z.min_l by lia.
  destruct (Z.leb_spec 0 (digits_value 16 ds)); [|lia]. destruct (Z.leb_spec (digits_value 16 ds) 1114111); [|lia].
  cbn [andb]. destruct (Z.leb_spec 55296 (digits_value 16 ds)); destruct (Z.leb_spec (digits_value 16 ds) 57343); cbn [andb negb]; try reflexivity. lia.
Qed.

(** octal: all of \0 .. \377 in the one-, two- and three-digit spellings the grammar accepts *)
Definition octal_spellings : list (list Z) :=
  map (fun a => [a]) (map Z.of_nat (seq 0 8)) ++
  flat_map (fun a => map (fun b => [a; b]) (map Z.of_nat (seq 0 8))) (map Z.of_nat (seq 0 8)) ++
  flat_map (fun a => flat_map (fun b => map (fun c => [a; b; c]) (map Z.of_nat (seq 0 8))) (map Z.of_nat (seq 0 8))) (map Z.of_nat (seq 0 4)).

Theorem octal_exact : forallb (fun ds => Z.eqb (add_octal ds) (digits_value 8 ds)) octal_spellings = true.
Proof. vm_compute. reflexivity. Qed.
