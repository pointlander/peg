(** The generated parser (Model/Machine.v, AST mode, any memo / inline / always-succeeds decisions)
    computes exactly the reference semantics (Spec/Peg.v): verdict, end position, live tokens
    = post-order of the derivation forest, maxToken = first-furthest fold over the attempt's
    events; the memo table stays justified and absorbed.  The case analysis is Lockstep.v's; this file
    has the relation, its closure properties, and the rule function with its memo table. *)
From PegV Require Import Base.Tac Base.ListX Spec.Syntax Spec.Peg Spec.WF Model.Machine Model.SkipCheck Proofs.PegFacts
  Proofs.Lockstep.

Arguments live : simpl never.
Arguments flat : simpl never.

Lemma set_at_firstn l : forall i (x : tok), i <= length l -> firstn (S i) (set_at l i x) = firstn i l ++ [x].
Proof.
  induction l as [|y l IH]; intros [|i] x H; cbn in *; try lia; try reflexivity.
  f_equal. apply IH. lia.
Qed.

Lemma set_at_length l : forall i (x : tok), i <= length l -> S i <= length (set_at l i x).
Proof.
  induction l as [|y l IH]; intros [|i] x H; cbn in *; try lia.
  specialize (IH i x). lia.
Qed.

Lemma flat_app f1 f2 : flat (f1 ++ f2) = flat f1 ++ flat f2.
Proof. unfold flat. apply flat_map_app. Qed.

Lemma flat_node r b e kids : flat [Node r b e kids] = flat kids ++ [(r, (b, e))].
Proof. unfold flat at 1. cbn [flat_map]. rewrite app_nil_r. apply postorder_node. Qed.

Section Sim.
Variable g : grammar.
Variable ptx : nat.
Variable buf : list rune.
Variable penv : nat -> nat -> bool.
Variable o : opts.

Hypothesis Hast : o_ast o = true.
Hypothesis Hg : forall r b, nth_error g r = Some (RBody b) -> expr_ok b = true.
(** every switch of the grammar is well guarded (trivial when -switch is off; re-checked per grammar otherwise) *)
Hypothesis Hsw : grammar_swok g (o_inline o).
(** calls emitted without a failure branch really cannot fail (discharged by [asu_rule_sound], AsuSound.v) *)
Hypothesis Hasu : forall r, o_asu o r = true -> forall n p evs, peg_ev g ptx buf penv n (EName r) p <> Some (Fail, evs).

Notation ev := (peg_ev g ptx buf penv).
Notation run := (run_f g ptx buf penv o).

Definition okst (st : mstate) : Prop := pos st <= length buf /\ tix st <= length (toks st).

Inductive mmatch : mentry -> res -> Prop :=
| mm_fail : mmatch MFail Fail
| mm_ok p f : mmatch (MOk (flat f)) (Succ p f).

Definition memo_okm (mm : list ((nat * nat) * mentry)) (mt : tok) : Prop :=
  forall r p m, lookup mm r p = Some m ->
    exists k rs evs, ev k (EName r) p = Some (rs, evs) /\ absorbed evs mt /\ mmatch m rs /\
                     match rs with Succ p' _ => p' <= length buf | Fail => True end.
Definition memo_ok (st : mstate) : Prop := memo_okm (memo st) (maxtok st).

Lemma memo_okm_mono mm mt mt' : memo_okm mm mt -> tk_end mt <= tk_end mt' -> memo_okm mm mt'.
Proof.
  intros H L r p m Hl. destruct (H r p m Hl) as (k & rs & evs & H1 & H2 & H3 & H4).
  exists k, rs, evs. split; [|split; [|split]]; auto. eapply absorbed_mono; eauto.
Qed.

Definition simr (lv : list tok) (mt : tok) (r : out) (m : option mres) : Prop :=
  match r with
  | (Fail, evs) =>
      exists st', m = Some (Ret false st') /\ length lv <= length (toks st') /\ firstn (length lv) (toks st') = lv
                  /\ maxtok st' = fold_left upd_max evs mt /\ memo_ok st'
  | (Succ p' f, evs) =>
      exists st', m = Some (Ret true st') /\ pos st' = p' /\ okst st' /\ tix st' = length lv + length (flat f)
                  /\ live st' = lv ++ flat f /\ maxtok st' = fold_left upd_max evs mt /\ memo_ok st'
  end.

Lemma live_length st : okst st -> length (live st) = tix st.
Proof. intros [_ H]. unfold live. apply firstn_length_le. exact H. Qed.

Lemma succ_frame lv x st' : live st' = lv ++ x -> tix st' = length lv + length x -> tix st' <= length (toks st') ->
  length lv <= length (toks st') /\ firstn (length lv) (toks st') = lv.
Proof.
  intros Hl Ht Hle. split; [lia|].
  rewrite <- (firstn_firstn_le (toks st') (length lv) (tix st')) by lia.
  change (firstn (tix st') (toks st')) with (live st'). rewrite Hl. apply firstn_app_exact.
Qed.

Lemma simr_nil st : okst st -> memo_ok st -> simr (live st) (maxtok st) (Succ (pos st) [], []) (Some (Ret true st)).
Proof.
  intros Hok Hm. exists st. change (flat []) with (@nil tok). rewrite app_nil_r. cbn [length].
  rewrite Nat.add_0_r, (live_length st Hok). auto 10.
Qed.

Lemma simr_fail lv mt evs st' :
  length lv <= length (toks st') -> firstn (length lv) (toks st') = lv ->
  maxtok st' = fold_left upd_max evs mt -> memo_ok st' ->
  simr lv mt (Fail, evs) (Some (Ret false st')).
Proof. intros. exists st'. auto 10. Qed.

Lemma simr_nil_fail st : okst st -> memo_ok st -> simr (live st) (maxtok st) (Fail, []) (Some (Ret false st)).
Proof. intros Hok Hm. apply simr_fail; auto; rewrite (live_length st Hok); [apply Hok|reflexivity]. Qed.

Lemma simr_adv st c : okst st -> memo_ok st -> nth_error buf (pos st) = Some c ->
  simr (live st) (maxtok st) (Succ (S (pos st)) [], []) (Some (Ret true (advance st))).
Proof.
  intros [Hp Ht] Hm Hc. assert (Hlt : pos st < length buf) by (apply nth_error_Some; congruence).
  exact (simr_nil (advance st) (conj Hlt Ht) Hm).
Qed.

Lemma simr_seq lv mt p1 f1 evs1 st1 r2 m :
  simr lv mt (Succ p1 f1, evs1) (Some (Ret true st1)) -> simr (live st1) (maxtok st1) r2 m ->
  simr lv mt (seq_out f1 evs1 r2) m.
Proof.
  intros (st' & [= <-] & _ & _ & _ & Hl & Hm & _) S2. rewrite Hl, Hm in S2.
  destruct r2 as [[|p2 f2] evs2]; cbn [seq_out simr fst snd] in *.
  - destruct S2 as (st' & E & A & B & D & F). exists st'. split; [exact E|].
    rewrite app_length in A, B. split; [lia|]. split.
    + rewrite <- (firstn_firstn_le (toks st') (length lv) (length lv + length (flat f1))) by lia.
      rewrite B. apply firstn_app_exact.
    + split; [|exact F]. rewrite D, fold_left_app. reflexivity.
  - destruct S2 as (st' & E & A & B & D & F & G & I). exists st'. split; [exact E|]. split; [exact A|]. split; [exact B|].
    rewrite app_length in D. rewrite flat_app, app_length.
    split; [lia|]. split; [rewrite F, app_assoc; reflexivity|].
    split; [|exact I]. rewrite G, fold_left_app. reflexivity.
Qed.

Lemma simr_neg lv mt p1 f1 evs st1 :
  simr lv mt (Succ p1 f1, evs) (Some (Ret true st1)) -> simr lv mt (Fail, evs) (Some (Ret false st1)).
Proof.
  intros (st' & [= <-] & _ & Ok & T & L & Mx & Mm). destruct (succ_frame _ _ _ L T (proj2 Ok)) as [A B].
  apply simr_fail; assumption.
Qed.

Lemma simr_prepend lv mt evs1 r2 m :
  simr lv (fold_left upd_max evs1 mt) r2 m -> simr lv mt (fst r2, evs1 ++ snd r2) m.
Proof.
  destruct r2 as [[|p2 f2] evs2]; cbn [simr fst snd]; intros H.
  - destruct H as (st' & E & A & B & D & F). exists st'. rewrite fold_left_app. auto 10.
  - destruct H as (st' & E & A & B & D & F & G & I). exists st'. rewrite fold_left_app. auto 10.
Qed.

(** after a failure, the catcher's restore re-establishes the state except for maxToken and the memo table *)
Lemma simr_restore st evs st1 : okst st -> simr (live st) (maxtok st) (Fail, evs) (Some (Ret false st1)) ->
  (okst (restore (pos st) (tix st) st1) /\ memo_ok (restore (pos st) (tix st) st1)) /\
  forall r m, simr (live (restore (pos st) (tix st) st1)) (maxtok (restore (pos st) (tix st) st1)) r m ->
              simr (live st) (maxtok st) (fst r, evs ++ snd r) m.
Proof.
  intros Hok (st' & [= <-] & A & B & D & F). rewrite (live_length st Hok) in A, B.
  split; [split; [split; [apply Hok|exact A]|exact F]|].
  intros r m H. unfold live at 1 in H. cbn [restore tix toks maxtok] in H. rewrite B, D in H.
  apply simr_prepend, H.
Qed.

Lemma add_facts r b st : tix st <= length (toks st) ->
  let st' := add o r b st in
  pos st' = pos st /\ tix st' = S (tix st) /\ tix st' <= length (toks st') /\
  live st' = live st ++ [(r, (b, pos st))] /\ maxtok st' = upd_max (maxtok st) (r, (b, pos st)) /\ memo st' = memo st.
Proof.
  intros H. cbv zeta. unfold add, live. rewrite Hast. cbn [pos tix toks maxtok memo].
  split; [reflexivity|]. split; [reflexivity|]. split; [apply set_at_length; exact H|].
  split; [apply set_at_firstn; exact H|]. split; reflexivity.
Qed.

Lemma simr_wrap lv mt r p0 p1 f1 evs1 st1 :
  simr lv mt (Succ p1 f1, evs1) (Some (Ret true st1)) ->
  simr lv mt (Succ p1 [Node r p0 p1 f1], evs1 ++ [(r, (p0, p1))]) (Some (Ret true (add o r p0 st1))).
Proof.
  intros (st' & [= <-] & P1 & [Hp Ht] & T1 & L1 & M1 & Mm1).
  destruct (add_facts r p0 st1 Ht) as (A & B & C & D & E & F).
  exists (add o r p0 st1). rewrite flat_node, app_length. cbn [length]. unfold okst, memo_ok.
  rewrite A, B, D, E, F, P1, L1, T1, M1, fold_left_app, app_assoc. cbn [fold_left].
  split; [reflexivity|]. split; [reflexivity|]. split; [split; [lia|]|].
  - rewrite <- T1, <- B. exact C.
  - split; [lia|]. split; [reflexivity|]. split; [reflexivity|].
    eapply memo_okm_mono; [exact Mm1|]. rewrite M1. apply upd_max_end.
Qed.

Notation chain := (chain g (o_inline o)).
Notation swok := (swok g (o_inline o)).

(** Lockstep.v's [skip_ok] *)
Definition flag_ok (e : expr) (pd mk : bool) (st : mstate) : Prop :=
  pd = true -> exists c, nth_error buf (pos st) = Some c /\ chain e mk c.

Lemma flag_ok_false e mk st : flag_ok e false mk st.
Proof. intros H; discriminate. Qed.

Definition IHn (n : nat) : Prop :=
  forall e pd mk st r, okst st -> memo_ok st -> expr_ok e = true -> swok e -> flag_ok e pd mk st ->
    ev n e (pos st) = Some r -> simr (live st) (maxtok st) r (run n e pd mk st).

Definition inv (st : mstate) : Prop := okst st /\ memo_ok st.
Notation rel := (fun st => simr (live st) (maxtok st)).

Lemma ast_mode : mode g ptx buf o inv rel.
Proof.
  split.
  - intros st [[Hp _] _]. exact Hp.
  - intros st p f evs m (st' & R & P & Ok & _ & _ & _ & Mm). exists st'. split; [exact R|]. split; [split; assumption|exact P].
  - intros st evs m (st' & R & _). exists st'. exact R.
  - intros st [Hok Hm]. apply simr_nil; assumption.
  - intros st [Hok Hm]. apply simr_nil_fail; assumption.
  - intros st c [Hok Hm]. apply simr_adv; assumption.
  - intros st p1 f1 evs1 st1 r2 m. apply simr_seq.
  - intros st p1 f1 evs st1. apply simr_neg.
  - intros st evs st1 [Hok _]. apply simr_restore, Hok.
  - intros st r b p1 f1 evs1 st1 _. apply simr_wrap.
  - intros st r k _ [Hok Hm]. rewrite Hast. exact (simr_wrap _ _ r (pos st) _ _ _ _ (simr_nil st Hok Hm)).
  - intros st p1 f1 evs1 st1. rewrite Hast. apply simr_wrap.
Qed.

Lemma IHn_lockstep n : IHn n <-> lockstep g ptx buf penv o inv rel n.
Proof.
  split; intros H e pd mk st r; [intros [Hok Hm]; exact (H e pd mk st r Hok Hm)|intros Hok Hm; exact (H e pd mk st r (conj Hok Hm))].
Qed.

Lemma name_shape m r p p' f evs :
  ev m (EName r) p = Some (Succ p' f, evs) ->
  exists kids, f = [Node r p p' kids] /\ In (r, (p, p')) evs.
Proof.
  destruct m as [|m]; [discriminate|]. cbn [peg_ev].
  destruct (nth_error g r) as [[b|k|]|]; try discriminate.
  - destruct (ev m b p) as [[[|p1 f1] evs1]|]; try discriminate. intros H; inv H.
    exists f1. split; [reflexivity|]. apply in_or_app. right. left. reflexivity.
  - intros H; inv H. exists []. split; [reflexivity|]. left. reflexivity.
Qed.

Lemma slice_live st lv x : live st = lv ++ x -> tix st = length lv + length x -> tix st <= length (toks st) ->
  slice (toks st) (length lv) (tix st) = x.
Proof.
  intros L T Hle. unfold slice. rewrite T. replace (length lv + length x - length lv) with (length x) by lia.
  unfold live in L. rewrite T in L. rewrite firstn_plus_app in L.
  assert (length (firstn (length lv) (toks st)) = length lv) by (apply firstn_length_le; lia).
  assert (firstn (length lv) (toks st) = lv /\ firstn (length x) (skipn (length lv) (toks st)) = x) as [_ E].
  { apply app_inj_len in L; auto. }
  exact E.
Qed.

Lemma lookup_cons mm r0 p0 e r p :
  lookup (((r0, p0), e) :: mm) r p = if ((r =? r0) && (p =? p0))%bool then Some e else lookup mm r p.
Proof. reflexivity. Qed.

Lemma memoize_facts r p t b st :
  let st' := memoize o r p t b st in
  pos st' = pos st /\ tix st' = tix st /\ toks st' = toks st /\ maxtok st' = maxtok st.
Proof. cbv zeta. unfold memoize. destruct (o_memo o); cbn; auto. Qed.

Lemma memo_ok_memoize r p t (b : bool) st1 rs evs k :
  memo_ok st1 -> ev k (EName r) p = Some (rs, evs) -> absorbed evs (maxtok st1) ->
  mmatch (if b then MOk (slice (toks st1) t (tix st1)) else MFail) rs ->
  match rs with Succ p' _ => p' <= length buf | Fail => True end ->
  memo_ok (memoize o r p t b st1).
Proof.
  intros Mm1 Hk Ha Hmm Hb. unfold memoize; destruct (o_memo o); [|exact Mm1].
  intros r' p' m'. cbn [memo maxtok]. rewrite lookup_cons.
  destruct ((r' =? r) && (p' =? p))%bool eqn:Ek; [|apply Mm1].
  apply andb_true_iff in Ek as [E1 E2]. apply Nat.eqb_eq in E1, E2. subst r' p'.
  intros [= <-]. exists k, rs, evs. auto.
Qed.

(** replaying a memo entry gives what the rule gave when the entry was stored; maxToken does not move,
    because the entry's events were absorbed then *)
Lemma memoized_sim st r m k rr : okst st -> memo_ok st -> lookup (memo st) r (pos st) = Some m ->
  ev k (EName r) (pos st) = Some rr -> simr (live st) (maxtok st) rr (Some (memoized m st)).
Proof.
  intros Hok Hm El H. pose proof (live_length st Hok) as LL. pose proof Hok as [Hp Ht].
  destruct (Hm _ _ _ El) as (k' & rs & evs & Hk & Habs & Hmm & Hb).
  pose proof (peg_ev_det _ _ _ _ _ _ _ _ _ _ Hk H) as <-.
  pose proof (absorbed_fold _ _ Habs) as Hfold.
  inv Hmm.
  - cbn [memoized]. apply simr_fail; auto; rewrite LL; [lia|reflexivity].
  - destruct (name_shape _ _ _ _ _ _ Hk) as (kids & -> & Hin).
    rewrite flat_node. cbn [memoized]. rewrite rev_snoc.
    destruct (Nat.ltb_spec (length (toks st)) (tix st)); [lia|].
    cbn [simr]. eexists. split; [reflexivity|]. cbn [pos tix toks maxtok memo tk_end tk_begin snd fst].
    unfold okst, live, memo_ok. cbn [pos tix toks maxtok memo].
    assert (Lf : length (firstn (tix st) (toks st)) = tix st) by (apply firstn_length_le; lia).
    rewrite <- flat_node. set (part := flat [Node r (pos st) p kids]).
    split; [reflexivity|]. split; [split; [exact Hb|rewrite app_length, Lf; lia]|].
    split; [rewrite Lf; reflexivity|].
    split.
    { rewrite <- Lf at 1. rewrite <- (app_length (firstn (tix st) (toks st)) part). rewrite firstn_all. reflexivity. }
    match goal with |- context [if ?c then _ else _] => assert (Hc : c = false) end.
    { destruct (Nat.eqb_spec (pos st) p) as [Eq|Ne]; [reflexivity|]. cbn [negb andb].
      specialize (Habs _ Hin Ne). cbn in Habs. destruct (Nat.ltb_spec (tk_end (maxtok st)) p); [lia|reflexivity]. }
    rewrite Hc. split; [symmetry; exact Hfold|]. exact Hm.
Qed.

Hypothesis Hbuf : forall c, In c buf -> c <> endSymbol.

Lemma rule_fn_sim n (IH : IHn n) r st rr :
  okst st -> memo_ok st -> ev (S n) (EName r) (pos st) = Some rr ->
  simr (live st) (maxtok st) rr (rule_fn g o (run n) r st).
Proof using Hast Hg Hsw.
  intros Hok Hm H. pose proof (live_length st Hok) as LL.
  unfold rule_fn. rewrite Hast.
  destruct (lookup (memo st) r (pos st)) as [m|] eqn:El; [exact (memoized_sim st r m _ rr Hok Hm El H)|].
  pose proof (ipush_step g ptx buf penv o inv rel ast_mode Hg Hsw n (proj1 (IHn_lockstep n) IH) r false false st rr
                (conj Hok Hm) (fun Hx => ltac:(discriminate)) (skip_ok_false g buf o _ _ _) H) as S1.
  cbv beta in S1. destruct rr as [[|p1 f1] evs1].
  - destruct S1 as (st1 & R & A & B & M1 & Mm1). rewrite R.
    destruct (memoize_facts r (pos st) (tix st) false st1) as (F1 & F2 & F3 & F4).
    apply simr_fail; cbn [restore toks maxtok memo]; rewrite ?F3, ?F4; auto.
    apply (memo_ok_memoize r (pos st) (tix st) false st1 Fail evs1 (S n)); auto; [|constructor].
    rewrite M1. apply fold_upd_absorbs.
  - destruct S1 as (st1 & R & P1 & Ok1 & T1 & L1 & M1 & Mm1). rewrite R. subst p1.
    destruct (memoize_facts r (pos st) (tix st) true st1) as (F1 & F2 & F3 & F4).
    eexists. split; [reflexivity|].
    unfold okst, live in *. rewrite F1, F2, F3, F4.
    split; [reflexivity|]. split; [exact Ok1|]. split; [exact T1|]. split; [exact L1|]. split; [exact M1|].
    apply (memo_ok_memoize r (pos st) (tix st) true st1 (Succ (pos st1) f1) evs1 (S n)); auto; [| |apply Ok1].
    + rewrite M1. apply fold_upd_absorbs.
    + rewrite <- LL. rewrite (slice_live st1 (firstn (tix st) (toks st)) (flat f1)); [constructor|exact L1|exact T1|apply Ok1].
Qed.

Theorem sim n : IHn n.
Proof.
  apply IHn_lockstep, (lockstep_all g ptx buf penv o inv rel ast_mode Hg Hsw Hasu Hbuf).
  intros m IH r st rr [Hok Hm]. apply rule_fn_sim; [apply IHn_lockstep, IH|exact Hok|exact Hm].
Qed.

End Sim.
