(** -noast: the generated parser keeps no tokens and no memo table; actions run inline when reached and
    [text] holds the most recently completed capture.  The machine (o_ast = false) returns the verdict
    and position of the reference semantics, and its action log is Execute's loop applied to ALL events
    of the attempt in time order (captures set text, action events are logged with the current text).
    The case analysis is Lockstep.v's. *)
From PegV Require Import Base.Tac Spec.Syntax Spec.Peg Spec.WF Model.Machine Model.SkipCheck Model.Runtime Proofs.PegFacts Proofs.RuntimeProofs
  Proofs.Lockstep.

Section SimN.
Variable g : grammar.
Variable ptx : nat.
Variable buf : list rune.
Variable penv : nat -> nat -> bool.
Variable o : opts.

Hypothesis Hast : o_ast o = false.
Hypothesis Hg : forall r b, nth_error g r = Some (RBody b) -> expr_ok b = true.
Hypothesis Hsw : grammar_swok g (o_inline o).
Hypothesis Hasu : forall r, o_asu o r = true -> forall n p evs, peg_ev g ptx buf penv n (EName r) p <> Some (Fail, evs).
Hypothesis Hbuf : forall c, In c buf -> c <> endSymbol.
(** the capture pseudo-rule is not a real rule *)
Hypothesis Hptx : forall rb, nth_error g ptx = Some rb -> rb = RNil.

Notation ev := (peg_ev g ptx buf penv).
Notation run := (run_f g ptx buf penv o).
Notation chain := (chain g (o_inline o)).
Notation swok := (swok g (o_inline o)).
Notation exec := (execute g ptx).
Notation txa := (text_after ptx).

Definition flag_ok (e : expr) (pd mk : bool) (st : mstate) : Prop :=
  pd = true -> exists c, nth_error buf (pos st) = Some c /\ chain e mk c.
Lemma flag_ok_false e mk st : flag_ok e false mk st.
Proof. intros H; discriminate. Qed.

(** relation between the spec result and the machine result, relative to the text register and log before *)
Definition simn (txt : nat * nat) (lg : list (nat * (nat * nat))) (r : out) (m : option mres) : Prop :=
  exists st', m = Some (Ret (match fst r with Fail => false | Succ _ _ => true end) st') /\
    text st' = txa (snd r) txt /\ alog st' = lg ++ exec (snd r) txt /\
    match fst r with Succ p' _ => pos st' = p' /\ p' <= length buf | Fail => True end.

Definition IHn (n : nat) : Prop :=
  forall e pd mk st r, pos st <= length buf -> expr_ok e = true -> swok e -> flag_ok e pd mk st ->
    ev n e (pos st) = Some r -> simn (text st) (alog st) r (run n e pd mk st).

Lemma simn_nil st b p : (b = true -> pos st = p /\ p <= length buf) ->
  simn (text st) (alog st) ((if b then Succ p [] else Fail), []) (Some (Ret b st)).
Proof.
  intros H. exists st. destruct b; cbn [fst snd]; rewrite app_nil_r; (split; [reflexivity|]); (split; [reflexivity|]); (split; [reflexivity|]); auto.
Qed.

(** the events of an earlier part, completed or abandoned, come first *)
Lemma simn_prepend txt lg evs1 st1 r2 m :
  text st1 = txa evs1 txt -> alog st1 = lg ++ exec evs1 txt ->
  simn (text st1) (alog st1) r2 m -> simn txt lg (fst r2, evs1 ++ snd r2) m.
Proof.
  intros Ht Hl (st' & R & T & L & P). exists st'.
  rewrite Ht in T. rewrite Hl, Ht in L. cbn [fst snd].
  rewrite text_after_app, execute_app, app_assoc. auto.
Qed.

(** the relation does not look at the forest *)
Lemma simn_seq txt lg (p1 : nat) f1 evs1 st1 r2 m :
  simn txt lg (Succ p1 f1, evs1) (Some (Ret true st1)) -> simn (text st1) (alog st1) r2 m ->
  simn txt lg (seq_out f1 evs1 r2) m.
Proof.
  intros (st0 & [= <-] & Ht & Hl & _) S2. apply (simn_prepend _ _ _ _ _ _ Ht Hl) in S2.
  destruct r2 as [[|p2 f2] evs2]; exact S2.
Qed.

Lemma exec_rule_event r b e txt : (forall k, nth_error g r <> Some (RAct k)) -> r <> ptx ->
  exec [(r, (b, e))] txt = [] /\ txa [(r, (b, e))] txt = txt.
Proof.
  intros Hna Hne. cbn [execute]. unfold text_after. cbn [fold_left fst snd].
  destruct (Nat.eqb_spec r ptx); [contradiction|].
  destruct (nth_error g r) as [[?|k|]|] eqn:E; auto. exfalso. eapply Hna; eauto.
Qed.

Notation inv := (fun st : mstate => pos st <= length buf).
Notation rel := (fun st : mstate => simn (text st) (alog st)).

Lemma noast_mode : mode g ptx buf o inv rel.
Proof.
  split.
  - intros st H. exact H.
  - intros st p f evs m (st' & R & _ & _ & P & B). exists st'. cbn [fst] in R. rewrite P. auto.
  - intros st evs m (st' & R & _). exists st'. exact R.
  - intros st Hi. apply (simn_nil st true). auto.
  - intros st _. apply (simn_nil st false 0). discriminate.
  - intros st c Hi Hc. assert (pos st < length buf) by (apply nth_error_Some; congruence).
    exists (advance st). cbn. rewrite app_nil_r. repeat split; auto.
  - intros st p1 f1 evs1 st1 r2 m. apply simn_seq.
  - intros st p1 f1 evs st1 (st0 & [= <-] & T & L & _). exists st1. cbn [fst snd] in *. auto.
  - intros st evs st1 Hi (st0 & [= <-] & Ht & Hl & _). split; [exact Hi|].
    intros r m. exact (simn_prepend _ _ evs (restore (pos st) (tix st) st1) r m Ht Hl).
  - (* a rule token leaves no trace in -noast besides maxToken and the token index, which [add] advances in either mode *)
    intros st r b p1 f1 evs1 st1 Eg (st0 & [= <-] & T1 & L1 & P1). cbn [fst snd] in *.
    assert (Hne : r <> ptx) by (intros ->; specialize (Hptx _ Eg); discriminate).
    destruct (exec_rule_event r (pos st) p1 (txa evs1 (text st))) as [X1 X2]; [intros k Hk; congruence|exact Hne|].
    exists (add o r (pos st) st1). cbn [fst snd]. split; [reflexivity|].
    unfold add. rewrite Hast. cbn [text alog pos]. rewrite text_after_app, execute_app, X1, X2, app_nil_r. auto.
  - intros st r k Eg Hi. rewrite Hast. exists (log_action k st). cbn [fst snd]. split; [reflexivity|].
    assert (Hne : r <> ptx) by (intros ->; specialize (Hptx _ Eg); discriminate).
    unfold log_action, text_after. cbn [text alog pos execute fold_left fst snd].
    destruct (Nat.eqb_spec r ptx); [contradiction|]. rewrite Eg. auto.
  - (* text := [begin, position) *)
    intros st p1 f1 evs1 st1 (st0 & [= <-] & T1 & L1 & P1 & B1). cbn [fst snd] in *. rewrite Hast.
    exists (set_text (pos st) (pos st1) st1). cbn [fst snd]. split; [reflexivity|].
    unfold set_text. cbn [text alog pos]. rewrite text_after_app, execute_app.
    unfold text_after at 1. cbn [fold_left fst snd execute]. rewrite Nat.eqb_refl. cbn [execute]. rewrite app_nil_r.
    rewrite P1. auto.
Qed.

Lemma rule_fn_simn n (IH : IHn n) r st rr :
  pos st <= length buf -> ev (S n) (EName r) (pos st) = Some rr ->
  simn (text st) (alog st) rr (rule_fn g o (run n) r st).
Proof using Hast Hg Hsw Hptx.
  intros Hp H.
  pose proof (ipush_step g ptx buf penv o inv rel noast_mode Hg Hsw n IH r false false st rr Hp
                (fun Hx => ltac:(discriminate)) (skip_ok_false g buf o _ _ _) H) as (st1 & R & T1 & L1 & P1).
  unfold rule_fn. rewrite Hast. rewrite R. destruct rr as [[|p1 f1] evs1]; cbn [fst snd] in *.
  - exists (restore (pos st) (tix st) st1). cbn [fst snd restore text alog]. auto.
  - exists st1. cbn [fst snd]. auto.
Qed.

Lemma ev_pos n e p p' f evs : p <= length buf -> ev n e p = Some (Succ p' f, evs) -> p' <= length buf.
Proof.
  intros Hp H. destruct (Forest.ev_ok g ptx buf penv n e p _ Hp H) as [_ [_ B]]. exact B.
Qed.


Theorem simN n : IHn n.
Proof. exact (lockstep_all g ptx buf penv o inv rel noast_mode Hg Hsw Hasu Hbuf rule_fn_simn n). Qed.

End SimN.
