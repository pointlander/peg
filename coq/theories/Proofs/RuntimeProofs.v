(** Execute(), AST() and translatePositions() compute what the derivation forest / the line
    structure of the input say (C04, C05, C11 positions). *)
From Coq Require Import Sorting.Sorted.
From PegV Require Import Base.Tac Spec.Syntax Spec.Tokens Model.Runtime Proofs.Forest.

Section Exec.
Variable g : grammar.
Variable ptx : nat.

Lemma trace_dt_node r b e kids txt :
  trace_dt g ptx (Node r b e kids) txt =
    let '(evs, txt1) := trace_forest g ptx kids txt in
    if r =? ptx then (evs, (b, e))
    else match nth_error g r with
         | Some (RAct k) => (evs ++ [(k, txt1)], txt1)
         | _ => (evs, txt1)
         end.
Proof. reflexivity. Qed.

Definition text_after (ts : list tok) (txt : nat * nat) : nat * nat :=
  fold_left (fun t (tk : tok) => if fst tk =? ptx then snd tk else t) ts txt.

Lemma text_after_app ts1 ts2 txt : text_after (ts1 ++ ts2) txt = text_after ts2 (text_after ts1 txt).
Proof. unfold text_after. apply fold_left_app. Qed.

Lemma execute_app ts1 : forall ts2 txt,
  execute g ptx (ts1 ++ ts2) txt = execute g ptx ts1 txt ++ execute g ptx ts2 (text_after ts1 txt).
Proof.
  induction ts1 as [|[r [b e]] ts1 IH]; intros ts2 txt; cbn [execute app]; [reflexivity|].
  unfold text_after. cbn [fold_left fst snd]. fold (text_after ts1).
  destruct (r =? ptx) eqn:Er.
  - rewrite IH. reflexivity.
  - destruct (nth_error g r) as [[?|k|]|]; rewrite IH; reflexivity.
Qed.

Definition exec_dt_ok (t : dt) : Prop :=
  forall txt, execute g ptx (postorder t) txt = fst (trace_dt g ptx t txt) /\
              text_after (postorder t) txt = snd (trace_dt g ptx t txt).
Definition exec_forest_ok (f : list dt) : Prop :=
  forall txt, execute g ptx (flat f) txt = fst (trace_forest g ptx f txt) /\
              text_after (flat f) txt = snd (trace_forest g ptx f txt).

Lemma exec_cons t f : exec_dt_ok t -> exec_forest_ok f -> exec_forest_ok (t :: f).
Proof.
  intros IHt IHf txt. rewrite flat_cons. cbn [trace_forest].
  destruct (IHt txt) as [E1 E2]. destruct (trace_dt g ptx t txt) as [e1 t1]. cbn [fst snd] in *.
  destruct (IHf t1) as [F1 F2]. destruct (trace_forest g ptx f t1) as [e2 t2]. cbn [fst snd] in *.
  rewrite execute_app, text_after_app. rewrite E1, E2, F1, F2. auto.
Qed.

Lemma exec_node r b e kids : exec_forest_ok kids -> exec_dt_ok (Node r b e kids).
Proof.
  intros IH txt. rewrite postorder_node, trace_dt_node.
  destruct (IH txt) as [E1 E2]. destruct (trace_forest g ptx kids txt) as [evs txt1]. cbn [fst snd] in *.
  rewrite execute_app, text_after_app. rewrite E1, E2.
  cbn [execute]. unfold text_after at 1. cbn [fold_left fst snd].
  destruct (r =? ptx) eqn:Er; cbn [fst snd]; [rewrite app_nil_r; auto|].
  destruct (nth_error g r) as [[?|k|]|]; cbn [fst snd]; rewrite ?app_nil_r; auto.
Qed.

Theorem execute_is_trace f txt : execute g ptx (flat f) txt = fst (trace_forest g ptx f txt).
Proof.
  apply (forest_ind2 exec_dt_ok exec_forest_ok exec_node (fun txt => conj eq_refl eq_refl) exec_cons f txt).
Qed.

End Exec.

(** C05: the stack algorithm of AST() rebuilds the pruned derivation forest *)
Definition rroot (x : rose) : tok := match x with Rose t _ => t end.
Definition before (lo : nat) (S : list rose) : Prop :=
  Forall (fun x => tk_begin (rroot x) < tk_end (rroot x) /\ tk_end (rroot x) <= lo) S.
Definition within (b e : nat) (xs : list rose) : Prop :=
  Forall (fun x => b <= tk_begin (rroot x) /\ tk_end (rroot x) <= e) xs.

Lemma prune_dt_node r b e kids :
  prune_dt (Node r b e kids) = if b =? e then [] else [Rose (r, (b, e)) (prune_forest kids)].
Proof. reflexivity. Qed.

Lemma absorb_all t xs : forall S acc,
  within (tk_begin t) (tk_end t) xs ->
  (match S with [] => True | s :: _ => ~ (tk_begin t <= tk_begin (rroot s) /\ tk_end (rroot s) <= tk_end t) end) ->
  absorb t (rev xs ++ S) acc = (xs ++ acc, S).
Proof.
  induction xs as [|x xs IH] using rev_ind; intros S acc Hw HS.
  - cbn [rev app]. destruct S as [|[s ks] S]; cbn [absorb]; [reflexivity|].
    cbn [rroot] in HS. destruct (tk_begin t <=? tk_begin s) eqn:E1; destruct (tk_end s <=? tk_end t) eqn:E2; cbn [andb]; try reflexivity.
    apply Nat.leb_le in E1, E2. exfalso. apply HS. auto.
  - rewrite rev_app_distr. cbn [rev app]. destruct x as [s ks]. cbn [absorb].
    unfold within in Hw. apply Forall_app in Hw as [Hw Hx]. inv Hx. cbn [rroot] in *.
    destruct (Nat.leb_spec (tk_begin t) (tk_begin s)); [|lia]. destruct (Nat.leb_spec (tk_end s) (tk_end t)); [|lia].
    cbn [andb]. rewrite IH; auto. rewrite <- app_assoc. reflexivity.
Qed.

Lemma prune_empty_span f : forall b, wf_forest b b f -> prune_forest f = [].
Proof.
  induction f as [|[r b' e' kids] f IH]; intros b H; [reflexivity|].
  inv H. match goal with H : wf_dt _ |- _ => inv H end.
  match goal with H : wf_forest e' b f |- _ => pose proof (wf_forest_le _ _ _ H); pose proof H as Hrest end.
  assert (b' = b /\ e' = b) as [-> ->] by lia.
  unfold prune_forest. cbn [flat_map]. rewrite prune_dt_node, Nat.eqb_refl. cbn [app]. apply (IH b). exact Hrest.
Qed.

Lemma prune_within : forall lo hi f, wf_forest lo hi f -> within lo hi (prune_forest f).
Proof.
  apply (wf_forest_mut (fun t => match t with Node r b e kids => within b e (prune_dt t) end)
                       (fun lo hi f => within lo hi (prune_forest f))).
  - intros r b e kids Hbe Hk IH. rewrite prune_dt_node. destruct (b =? e); constructor; [|constructor]. cbn; lia.
  - intros; constructor.
  - intros lo hi r b e kids rest Hlo Hdt IHt Hrest IHr.
    pose proof (wf_forest_le _ _ _ Hrest). inv Hdt.
    unfold prune_forest. cbn [flat_map]. apply Forall_app. split.
    + eapply Forall_impl; [|exact IHt]. cbn. intros; lia.
    + eapply Forall_impl; [|exact IHr]. cbn. intros; lia.
Qed.

Lemma before_weaken lo lo' S : before lo S -> lo <= lo' -> before lo' S.
Proof. intros H L. eapply Forall_impl; [|exact H]. cbn. intros; lia. Qed.

Definition ast_dt_ok (t : dt) : Prop :=
  match t with Node r b e kids =>
    forall S, before b S -> fold_left ast_step (postorder t) S = rev (prune_dt t) ++ S end.
Definition ast_forest_ok (lo : nat) (f : list dt) : Prop :=
  forall S, before lo S -> fold_left ast_step (flat f) S = rev (prune_forest f) ++ S.

Theorem ast_rebuilds : forall lo hi f, wf_forest lo hi f -> ast_forest_ok lo f.
Proof.
  apply (wf_forest_mut ast_dt_ok (fun lo _ => ast_forest_ok lo)).
  - (* node *)
    intros r b e kids Hbe Hk IH S HS. rewrite postorder_node, fold_left_app, (IH S HS). cbn [fold_left].
    rewrite prune_dt_node. unfold ast_step. cbn [tk_begin tk_end fst snd].
    destruct (Nat.eqb_spec b e) as [->|Hne].
    + rewrite (prune_empty_span kids e Hk). reflexivity.
    + rewrite (absorb_all (r, (b, e)) (prune_forest kids) S []).
      * rewrite app_nil_r. reflexivity.
      * apply prune_within. exact Hk.
      * destruct S as [|s S]; [exact I|]. inv HS. cbn [tk_begin tk_end fst snd]. lia.
  - intros lo hi Hle S HS. reflexivity.
  - intros lo hi r b e kids rest Hlo Hdt IHt Hrest IHr S HS.
    rewrite flat_cons, fold_left_app. unfold ast_dt_ok in IHt.
    rewrite (IHt S (before_weaken _ _ _ HS Hlo)).
    rewrite IHr.
    + unfold prune_forest. cbn [flat_map]. rewrite rev_app_distr, app_assoc. reflexivity.
    + inv Hdt. rewrite prune_dt_node. destruct (Nat.eqb_spec b e) as [->|Hne]; cbn [rev app].
      * eapply before_weaken; [exact HS|lia].
      * constructor; [cbn; lia|]. eapply before_weaken; [exact HS|lia].
Qed.

(** AST() of the token list of a successful parse *)
Corollary ast_of_parse r p kids :
  wf_forest 0 p [Node r 0 p kids] ->
  ast (flat [Node r 0 p kids]) = if 0 =? p then None else Some (Rose (r, (0, p)) (prune_forest kids)).
Proof.
  intros W. unfold ast, ast_stack. rewrite (ast_rebuilds 0 p _ W []) by constructor.
  rewrite app_nil_r. unfold prune_forest. cbn [flat_map]. rewrite app_nil_r, prune_dt_node.
  destruct (0 =? p); reflexivity.
Qed.

(** C11: translatePositions reports 1-based line and column *)
Lemma translate_f_spec b : forall i line sym want acc,
  StronglySorted le want -> (forall p, In p want -> i <= p < i + length b) ->
  translate_f b i line sym want acc = acc ++ map (fun p => (p, linecol_f b (p - i) line (S sym))) want.
Proof.
  induction b as [|c b IH]; intros i line sym want acc Hs Hr.
  - destruct want as [|p want]; [cbn; rewrite app_nil_r; reflexivity|].
    specialize (Hr p (or_introl eq_refl)). cbn in Hr. lia.
  - revert acc. induction want as [|p w IHw]; intros acc; [cbn; rewrite app_nil_r; reflexivity|].
    pose proof Hs as Hs'. inv Hs. rewrite Forall_forall in H2.
    destruct (Nat.eqb_spec p i) as [->|Hne].
    + (* the inner loop records p and goes on *)
      transitivity (translate_f (c :: b) i line sym w (acc ++ [(i, (line, S sym))]));
        [cbn [translate_f]; rewrite Nat.eqb_refl; reflexivity|].
      rewrite IHw by (auto; intros q Hq; apply Hr; right; exact Hq).
      cbn [map]. rewrite Nat.sub_diag, <- app_assoc. reflexivity.
    + (* the inner loop is done: every position left lies beyond i *)
      assert (Hr' : forall q, In q (p :: w) -> S i <= q < S i + length b).
      { intros q Hq. pose proof (Hr p (or_introl eq_refl)). specialize (Hr q Hq). cbn [length] in *.
        destruct Hq as [<-|Hq]; [|specialize (H2 q Hq)]; lia. }
      assert (M : forall q, In q (p :: w) -> linecol_f (c :: b) (q - i) line (S sym) =
                if Z.eqb c newline then linecol_f b (q - S i) (S line) 1 else linecol_f b (q - S i) line (S (S sym))).
      { intros q Hq. specialize (Hr' q Hq). replace (q - i) with (S (q - S i)) by lia. reflexivity. }
      cbn [translate_f]. apply Nat.eqb_neq in Hne. rewrite Hne.
      destruct (Z.eqb c newline); rewrite IH by assumption; f_equal; apply map_ext_in; intros q Hq; rewrite (M q Hq); reflexivity.
Qed.

Lemma linecol_f_irrel b : forall i line col, i <= length b -> forall b', linecol_f (b ++ b') i line col = linecol_f b i line col.
Proof.
  induction b as [|c b IH]; intros i line col Hi b'; cbn in Hi.
  - assert (i = 0) by lia. subst. destruct b'; reflexivity.
  - destruct i; [reflexivity|]. cbn [app linecol_f]. destruct (Z.eqb c newline); apply IH; lia.
Qed.

Theorem error_fields_spec buf t :
  tk_begin t <= tk_end t -> tk_end t <= length buf ->
  error_fields (buf ++ [endSymbol]) t =
    Some (tk_rule t, linecol buf (tk_begin t), linecol buf (tk_end t),
          firstn (tk_end t - tk_begin t) (skipn (tk_begin t) buf)).
Proof.
  intros Hbe He. unfold error_fields.
  destruct (Nat.leb_spec (tk_begin t) (tk_end t)); [|lia].
  rewrite app_length. cbn [length]. destruct (Nat.leb_spec (tk_end t) (length buf + 1)); [|lia]. cbn [andb].
  unfold translate. rewrite translate_f_spec.
  - cbn [app map assoc]. rewrite !Nat.sub_0_r, Nat.eqb_refl.
    unfold linecol. rewrite !linecol_f_irrel by lia.
    assert (Hslice : firstn (tk_end t - tk_begin t) (skipn (tk_begin t) (buf ++ [endSymbol]))
                     = firstn (tk_end t - tk_begin t) (skipn (tk_begin t) buf)).
    { rewrite skipn_app. rewrite firstn_app. rewrite skipn_length.
      replace (tk_end t - tk_begin t - (length buf - tk_begin t)) with 0 by lia. cbn [firstn]. apply app_nil_r. }
    rewrite Hslice.
    destruct (Nat.eqb_spec (tk_end t) (tk_begin t)) as [Eq|Ne]; [rewrite Eq|rewrite Nat.eqb_refl]; reflexivity.
  - repeat constructor; auto.
  - intros p [<-|[<-|[]]]; rewrite app_length; cbn; lia.
Qed.
