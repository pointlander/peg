(** What the Go compiler demands of the label / block skeleton of an emitted rule function
    (Model/Emit.v), and the proof that [emit] meets it for every expression:
    - label numbers stay in the range the call allocated; jumps go to that range or to the failure label;
    - a label is declared at most once;
    - every goto has its label in scope: declared directly in the statement list the goto is in, or in an
      enclosing one (Go: "goto outside a block cannot jump to a label inside it");
    - the flag [emit] returns is exact: it is true iff the last thing printed is a label (which is what
      puts a break before the next case clause, where Go wants a statement after a label);
    - variables are declared at the head of their block, so no goto jumps over a declaration. *)
From PegV Require Import Base.Tac Base.ListX Spec.Syntax Model.Analyses Model.Emit Proofs.DiagProofs.
Local Open Scope nat_scope.

Section CodeInd.
Variable P : code -> Prop.
Hypothesis HLeaf : forall x, (match x with KBlock _ | KSwitch _ _ => False | _ => True end) -> P x.
Hypothesis HBlock : forall b, Forall P b -> P (KBlock b).
Hypothesis HSwitch : forall cs d, Forall (Forall P) cs -> Forall P d -> P (KSwitch cs d).

Fixpoint code_ind2 (x : code) : P x :=
  match x with
  | KBlock b => HBlock b (Forall_all P code_ind2 b)
  | KSwitch cs d => HSwitch cs d (Forall_all _ (Forall_all P code_ind2) cs) (Forall_all P code_ind2 d)
  | y => HLeaf y I
  end.
End CodeInd.

Definition dlbl1 (x : code) : list nat := match x with KLbl n => [n] | _ => [] end.
Definition dlbls (c : list code) : list nat := flat_map dlbl1 c.

Fixpoint lbls1 (x : code) : list nat :=
  match x with
  | KLbl n => [n]
  | KBlock b => flat_map lbls1 b
  | KSwitch cs d => flat_map (flat_map lbls1) cs ++ flat_map lbls1 d
  | _ => []
  end.
Definition lbls (c : list code) : list nat := flat_map lbls1 c.

Fixpoint scoped1 (sc : list nat) (x : code) : bool :=
  match x with
  | KJmp n | KCJmp n => memb n sc
  | KBlock b => forallb (scoped1 (dlbls b ++ sc)) b
  | KSwitch cs d => forallb (fun k => forallb (scoped1 (dlbls k ++ sc)) k) cs && forallb (scoped1 (dlbls d ++ sc)) d
  | _ => true
  end.
Definition scoped (sc : list nat) (c : list code) : bool := forallb (scoped1 (dlbls c ++ sc)) c.

Definition is_decl (x : code) : bool := match x with KSave _ | KSaveP _ => true | _ => false end.
Definition is_st (x : code) : bool := match x with KSt => true | _ => false end.
Fixpoint drop_while {A} (f : A -> bool) (l : list A) : list A :=
  match l with [] => [] | x :: l' => if f x then drop_while f l' else l end.
Definition head_decls (c : list code) : bool :=
  forallb (fun x => negb (is_decl x)) (drop_while is_decl (drop_while is_st c)).
Fixpoint decl1 (x : code) : bool :=
  match x with
  | KBlock b => head_decls b && forallb decl1 b
  | KSwitch cs d => forallb (fun k => forallb (fun y => negb (is_decl y)) k && forallb decl1 k) cs
                    && forallb (fun y => negb (is_decl y)) d && forallb decl1 d
  | _ => true
  end.

Definition ends_lbl (c : list code) : bool := match rev c with KLbl _ :: _ => true | _ => false end.
Fixpoint cases1 (x : code) : bool :=
  match x with
  | KBlock b => forallb cases1 b
  | KSwitch cs d => forallb (fun k => negb (ends_lbl k) && forallb cases1 k) cs && forallb cases1 d
  | _ => true
  end.

Definition mono1 (x : code) : Prop :=
  forall sc sc', (forall n, In n (jumps1 x) -> In n sc -> In n sc') -> scoped1 sc x = true -> scoped1 sc' x = true.

Lemma scoped_mono_list c : Forall mono1 c ->
  forall sc sc', (forall n, In n (jumps c) -> In n sc -> In n sc') -> scoped sc c = true -> scoped sc' c = true.
Proof.
  unfold scoped. intros Hc sc sc' Hi H. rewrite forallb_forall in *. rewrite Forall_forall in Hc.
  intros x Hx. eapply Hc; [exact Hx| |apply H; exact Hx].
  intros n Hj Hn. apply in_app_or in Hn as [Hn|Hn]; apply in_or_app; [left; exact Hn|right].
  apply Hi; [eapply in_flat_map_intro; eauto|exact Hn].
Qed.

Lemma scoped1_mono x : mono1 x.
Proof.
  induction x as [x Hx|b H|cs d H H0] using code_ind2; intros sc sc' Hi Hs; cbn [scoped1 jumps1] in *.
  - destruct x; try reflexivity; try destruct Hx.
    (* the two gotos *)
    all: apply memb_In, Hi; [left; reflexivity|apply memb_In; exact Hs].
  - exact (scoped_mono_list b H sc sc' Hi Hs).
  - apply andb_true_iff in Hs as [H1 H2]. apply andb_true_iff. split.
    + rewrite forallb_forall in *. rewrite Forall_forall in H. intros k Hk.
      apply (scoped_mono_list k (H k Hk) sc sc'); [|exact (H1 k Hk)].
      intros n Hj. apply Hi, in_or_app. left. eapply in_flat_map_intro; eauto.
    + apply (scoped_mono_list d H0 sc sc'); [|exact H2]. intros n Hj. apply Hi, in_or_app. right. exact Hj.
Qed.

Lemma scoped_mono sc sc' c : (forall n, In n (jumps c) -> In n sc -> In n sc') -> scoped sc c = true -> scoped sc' c = true.
Proof. apply scoped_mono_list, Forall_forall. intros x _. apply scoped1_mono. Qed.

Lemma dlbls_app a b : dlbls (a ++ b) = dlbls a ++ dlbls b.
Proof. unfold dlbls. apply flat_map_app. Qed.
Lemma lbls_app a b : lbls (a ++ b) = lbls a ++ lbls b.
Proof. unfold lbls. apply flat_map_app. Qed.
Lemma jumps_app a b : jumps (a ++ b) = jumps a ++ jumps b.
Proof. unfold jumps. apply flat_map_app. Qed.
Lemma jumps_cons x c : jumps (x :: c) = jumps1 x ++ jumps c.  Proof. reflexivity. Qed.
Lemma lbls_cons x c : lbls (x :: c) = lbls1 x ++ lbls c.  Proof. reflexivity. Qed.
Lemma jumps_block b : jumps [KBlock b] = jumps b.  Proof. exact (app_nil_r _). Qed.
Lemma lbls_block b : lbls [KBlock b] = lbls b.  Proof. exact (app_nil_r _). Qed.
Lemma jumps_switch cls d : jumps [KSwitch cls d] = flat_map jumps cls ++ jumps d.  Proof. exact (app_nil_r _). Qed.
Lemma lbls_switch cls d : lbls [KSwitch cls d] = flat_map lbls cls ++ lbls d.  Proof. exact (app_nil_r _). Qed.
Lemma jumps_lbl_if u n : jumps (lbl_if u n) = [].  Proof. unfold lbl_if. destruct (u n); reflexivity. Qed.

Lemma scoped_app sc a b : scoped (dlbls b ++ sc) a = true -> scoped (dlbls a ++ sc) b = true -> scoped sc (a ++ b) = true.
Proof.
  unfold scoped. intros Ha Hb. rewrite forallb_app, dlbls_app, <- app_assoc. apply andb_true_iff. split; [exact Ha|].
  rewrite forallb_forall in *. intros x Hx. eapply scoped1_mono; [|apply Hb; exact Hx].
  intros n _ Hn. rewrite !in_app_iff in *. tauto.
Qed.

(** the shape of everything [emit] can produce, as a relation (no fuel, no grammar) *)
Section Shape.
Variable ast : bool.
Variable used : nat -> bool.
Notation lbl_if := (lbl_if used).

Definition brk (ll : bool) : list code := if ll then [KBrk] else [].

(** [Em ko l c l' ll]: code c, failing to label ko, allocating the labels l .. l'-1 *)
Inductive Em : nat -> nat -> list code -> nat -> bool -> Prop :=
| em_nil ko l : Em ko l [] l false
| em_cjmp ko l : Em ko l [KCJmp ko] l false
| em_st ko l : Em ko l [KSt] l false
| em_cjmp_st ko l : Em ko l [KCJmp ko; KSt] l false
| em_pred ko l : Em ko l [KBlock [KSt; KCJmp ko]] l false
| em_seq ko l a l1 lla b l2 llb :
    Em ko l a l1 lla -> Em ko l1 b l2 llb -> Em ko l (a ++ b) l2 (match b with [] => lla | _ => llb end)
| em_ipush ko l c l1 ll : Em ko (S l) c l1 ll -> Em ko l [KBlock (KSaveP l :: c ++ [KUseP l])] l1 false
| em_iact ko l : Em ko l [KBlock [KSt]] (S l) false
| em_iundef ko l : Em ko l [KBlock [KSaveP l; KUseP l]] (S l) false
| em_alt ko ok c l1 : AltEm ko ok (S ok) c l1 -> Em ko ok ([KBlock (KSave ok :: c)] ++ lbl_if ok) l1 (used ok)
| em_switch ko ok cls l1 cd l2 lld :
    CasesEm ko (S ok) cls l1 -> Em ko l1 cd l2 lld ->
    Em ko ok ([KBlock [KSwitch cls (cd ++ brk lld)]] ++ lbl_if ok) l2 (used ok)
| em_and ko ok c l1 ll : Em ko (S ok) c l1 ll -> Em ko ok [KBlock (KSave ok :: c ++ [KRestore ok])] l1 false
| em_not ko ok c l1 ll : Em ok (S ok) c l1 ll -> Em ko ok [KBlock (KSave ok :: c ++ [KJmp ko] ++ lbl_if ok ++ [KRestore ok])] l1 false
| em_query ko qko c l1 ll :
    Em qko (S (S qko)) c l1 ll ->
    Em ko qko ([KBlock (KSave qko :: c ++ [KJmp (S qko)] ++ lbl_if qko ++ [KRestore qko])] ++ lbl_if (S qko)) l1 (used (S qko))
| em_star ko again c l1 ll :
    Em (S again) (S (S again)) c l1 ll ->
    Em ko again (lbl_if again ++ [KBlock (KSave (S again) :: c ++ [KJmp again] ++ lbl_if (S again) ++ [KRestore (S again)])]) l1 false
| em_plus ko again c1 l1 ll1 c2 l2 ll2 :
    Em ko (S (S again)) c1 l1 ll1 -> Em (S again) l1 c2 l2 ll2 ->
    Em ko again (c1 ++ lbl_if again ++ [KBlock (KSave (S again) :: c2 ++ [KJmp again] ++ lbl_if (S again) ++ [KRestore (S again)])]) l2 false
| em_push ko ok c l1 ll :
    Em ko (S ok) c l1 ll -> Em ko ok [KBlock (KSaveP ok :: c ++ (if ast then [KUseP ok] else [KUseP ok; KSt]))] l1 false
with AltEm : nat -> nat -> nat -> list code -> nat -> Prop :=
| alt_nil ko ok l : AltEm ko ok l [] l
| alt_one ko ok l c l1 ll : Em ko l c l1 ll -> AltEm ko ok l c l1
| alt_cons ko ok l c l1 ll c' l2 :
    Em l (S l) c l1 ll -> AltEm ko ok l1 c' l2 ->
    AltEm ko ok l (c ++ [KJmp ok] ++ lbl_if l ++ [KRestore ok] ++ c') l2
with CasesEm : nat -> nat -> list (list code) -> nat -> Prop :=
| cases_nil ko l : CasesEm ko l [] l
| cases_cons ko l c l1 ll cls l2 :
    Em ko l c l1 ll -> CasesEm ko l1 cls l2 -> CasesEm ko l ((c ++ brk ll) :: cls) l2.

Scheme Em_mind := Minimality for Em Sort Prop
  with AltEm_mind := Minimality for AltEm Sort Prop
  with CasesEm_mind := Minimality for CasesEm Sort Prop.
Combined Scheme Em_mutind from Em_mind, AltEm_mind, CasesEm_mind.

Lemma Em_nil_inv ko l c l1 ll : Em ko l c l1 ll -> c = [] -> l1 = l.
Proof.
  induction 1; intros E; try reflexivity; try discriminate.
  - apply app_eq_nil in E as [-> ->]. rewrite IHEm2 by reflexivity. apply IHEm1. reflexivity.
  - apply app_eq_nil in E as [_ E]. discriminate.
  - apply app_eq_nil in E as [_ E]. apply app_eq_nil in E as [_ E]. discriminate.
Qed.

Section Emits.
Variable g : grammar.
Variable inl asu : nat -> bool.
Notation emit := (emit g ast inl asu used).

Lemma seq_emit_Em (f : expr -> nat -> bool -> bool -> nat -> res) :
  (forall e ko pd mk l c l1 ll, f e ko pd mk l = (c, l1, ll) -> Em ko l c l1 ll) ->
  forall es ko pd mk l ll0 c l1 ll, seq_emit f es ko pd mk l ll0 = (c, l1, ll) ->
    exists ll', Em ko l c l1 ll' /\ ll = match c with [] => ll0 | _ => ll' end.
Proof.
  intros Hf. induction es as [|x es IH]; intros ko pd mk l ll0 c l1 ll H; cbn [seq_emit] in H.
  - inv H. exists false. split; [constructor|reflexivity].
  - destruct (f x ko pd mk l) as [[cx lx] llx] eqn:Ex.
    destruct (seq_emit f es ko false false lx (match cx with [] => ll0 | _ => llx end)) as [[cr lr] llr] eqn:Er. inv H.
    destruct (IH _ _ _ _ _ _ _ _ Er) as (ll' & Hr & El).
    exists (match cr with [] => llx | _ => ll' end). split; [eapply em_seq; eauto|].
    rewrite El. destruct cr as [|y cr]; [rewrite app_nil_r; destruct cx; reflexivity|].
    destruct cx; reflexivity.
Qed.

Lemma alt_emit_Em (f : expr -> nat -> bool -> bool -> nat -> res) :
  (forall e ko pd mk l c l1 ll, f e ko pd mk l = (c, l1, ll) -> Em ko l c l1 ll) ->
  forall es ko ok l c l1, alt_emit used f es ko ok l = (c, l1) -> AltEm ko ok l c l1.
Proof.
  intros Hf. induction es as [|x es IH]; intros ko ok l c l1 H; cbn [alt_emit] in H.
  - inv H. constructor.
  - destruct es as [|y es].
    + destruct (f x ko false false l) as [[cx lx] llx] eqn:Ex. inv H. eapply alt_one. eauto.
    + destruct (f x l false false (S l)) as [[cx lx] llx] eqn:Ex.
      destruct (alt_emit used f (y :: es) ko ok lx) as [cr lr] eqn:Er. inv H.
      eapply alt_cons; eauto.
Qed.

Lemma cases_emit_Em (f : expr -> nat -> bool -> bool -> nat -> res) :
  (forall e ko pd mk l c l1 ll, f e ko pd mk l = (c, l1, ll) -> Em ko l c l1 ll) ->
  forall cs ko l cls l1, cases_emit f cs ko l = (cls, l1) -> CasesEm ko l cls l1.
Proof.
  intros Hf. induction cs as [|[keys b] cs IH]; intros ko l cls l1 H; cbn [cases_emit] in H.
  - inv H. constructor.
  - destruct (f b ko true (Nat.ltb 1 (length keys)) l) as [[cx lx] llx] eqn:Ex.
    destruct (cases_emit f cs ko lx) as [rest lr] eqn:Er. inv H.
    eapply cases_cons; eauto.
Qed.

Lemma ipush_emit_Em (f : expr -> nat -> bool -> bool -> nat -> res) :
  (forall e ko pd mk l c l1 ll, f e ko pd mk l = (c, l1, ll) -> Em ko l c l1 ll) ->
  forall r ko pd mk l c l1 ll, ipush_emit g f r ko pd mk l = (c, l1, ll) -> Em ko l c l1 false.
Proof.
  intros Hf r ko pd mk l c l1 ll H. unfold ipush_emit in H.
  destruct (nth_error g r) as [[b|k|]|]; [destruct (f b ko pd mk (S l)) as [[cx lx] llx] eqn:Ex|..]; inv H.
  - eapply em_ipush; eauto.
  - constructor.
  - constructor.
  - constructor.
Qed.

Theorem emit_Em : forall n e ko pd mk l c l1 ll, emit n e ko pd mk l = (c, l1, ll) -> Em ko l c l1 ll.
Proof.
  induction n as [|n IH]; intros e ko pd mk l c l1 ll H; [inv H; constructor|].
  destruct e; cbn [Emit.emit] in H.
  - destruct pd; inv H; constructor.
  - destruct (pd && negb mk)%bool; inv H; constructor.
  - destruct pd; inv H; constructor.
  - destruct (inl r).
    + destruct (ipush_emit g (emit n) r ko pd mk l) as [[cx lx] llx] eqn:Ex. inv H. eapply ipush_emit_Em; eauto.
    + destruct (asu r); inv H; constructor.
  - inv H; constructor.
  - inv H; constructor.
  - inv H; constructor.
  - inv H; constructor.
  - destruct (seq_emit_Em _ IH _ _ _ _ _ _ _ _ _ H) as (ll' & E & El). subst ll.
    destruct c; [|exact E]. rewrite (Em_nil_inv _ _ _ _ _ E eq_refl). constructor.
  - destruct (alt_emit used (emit n) es ko l (S l)) as [cx lx] eqn:Ex. inv H.
    apply em_alt. eapply alt_emit_Em; eauto.
  - destruct (emit n e ko false false (S l)) as [[cx lx] llx] eqn:Ex. inv H. eapply em_and; eauto.
  - destruct (emit n e l false false (S l)) as [[cx lx] llx] eqn:Ex. inv H. eapply em_not; eauto.
  - destruct (emit n e l false false (S (S l))) as [[cx lx] llx] eqn:Ex. inv H. eapply em_query; eauto.
  - destruct (emit n e (S l) false false (S (S l))) as [[cx lx] llx] eqn:Ex. inv H. eapply em_star; eauto.
  - destruct (emit n e ko false false (S (S l))) as [[c1 lx1] ll1] eqn:E1.
    destruct (emit n e (S l) false false lx1) as [[c2 lx2] ll2] eqn:E2. inv H. eapply em_plus; eauto.
  - destruct (emit n e ko pd mk (S l)) as [[cx lx] llx] eqn:Ex. inv H. eapply em_push; eauto.
  - destruct (cases_emit (emit n) cs ko (S l)) as [cls lx] eqn:Ex.
    destruct (emit n e ko false false lx) as [[cd ld] lld] eqn:Ed. inv H.
    eapply em_switch; eauto. eapply cases_emit_Em; eauto.
Qed.

Corollary ipush_Em n r ko pd mk l c l1 ll : ipush_emit g (emit n) r ko pd mk l = (c, l1, ll) -> Em ko l c l1 false.
Proof. apply ipush_emit_Em, emit_Em. Qed.
End Emits.

Lemma lbls_lbl_if n x : In x (lbls (lbl_if n)) -> x = n /\ used n = true.
Proof. unfold Emit.lbl_if. destruct (used n) eqn:E; cbn; [intros [<-|[]]; auto|intros []]. Qed.
Lemma jumps_usep ok : jumps (if ast then [KUseP ok] else [KUseP ok; KSt]) = [].
Proof. destruct ast; reflexivity. Qed.
Lemma lbls_usep ok : lbls (if ast then [KUseP ok] else [KUseP ok; KSt]) = [].
Proof. destruct ast; reflexivity. Qed.
Lemma jumps_brk ll : jumps (brk ll) = [].  Proof. destruct ll; reflexivity. Qed.
Lemma lbls_brk ll : lbls (brk ll) = [].  Proof. destruct ll; reflexivity. Qed.

(** a jump or label of a composed fragment is one of a piece *)
Ltac members :=
  repeat match goal with
         | H : In _ (jumps (_ ++ _)) |- _ => rewrite jumps_app in H
         | H : In _ (lbls (_ ++ _)) |- _ => rewrite lbls_app in H
         | H : In _ (jumps [KBlock _]) |- _ => rewrite jumps_block in H
         | H : In _ (lbls [KBlock _]) |- _ => rewrite lbls_block in H
         | H : In _ (jumps [KSwitch _ _]) |- _ => rewrite jumps_switch in H
         | H : In _ (lbls [KSwitch _ _]) |- _ => rewrite lbls_switch in H
         | H : In _ (jumps (lbl_if _)) |- _ => rewrite jumps_lbl_if in H
         | H : In _ (lbls (lbl_if _)) |- _ => apply lbls_lbl_if in H; destruct H
         | H : In _ (jumps (brk _)) |- _ => rewrite jumps_brk in H
         | H : In _ (lbls (brk _)) |- _ => rewrite lbls_brk in H
         | H : In _ (jumps (if _ then _ else _)) |- _ => rewrite jumps_usep in H
         | H : In _ (lbls (if _ then _ else _)) |- _ => rewrite lbls_usep in H
         | H : In _ (jumps (_ :: _)) |- _ => rewrite jumps_cons in H; cbn [jumps1] in H
         | H : In _ (lbls (_ :: _)) |- _ => rewrite lbls_cons in H; cbn [lbls1] in H
         | H : In _ (jumps []) |- _ => destruct H
         | H : In _ (lbls []) |- _ => destruct H
         | H : In _ (flat_map _ _) |- _ => apply in_flat_map in H; destruct H as (? & ? & ?)
         | H : In _ (_ ++ _) |- _ => apply in_app_or in H; destruct H
         | H : In _ (_ :: _) |- _ => destruct H as [H|H]; [try subst|]
         | H : In _ [] |- _ => destruct H
         end.

Definition rngE (ko l : nat) (c : list code) (l' : nat) (ll : bool) : Prop :=
  l <= l' /\ (forall j, In j (jumps c) -> j = ko \/ l <= j < l') /\ (forall x, In x (lbls c) -> l <= x < l' /\ used x = true).
Definition rngA (ko ok l : nat) (c : list code) (l' : nat) : Prop :=
  l <= l' /\ (forall j, In j (jumps c) -> j = ko \/ j = ok \/ l <= j < l') /\ (forall x, In x (lbls c) -> l <= x < l' /\ used x = true).
Definition rngC (ko l : nat) (cls : list (list code)) (l' : nat) : Prop :=
  l <= l' /\ (forall k j, In k cls -> In j (jumps k) -> j = ko \/ l <= j < l') /\
  (forall k x, In k cls -> In x (lbls k) -> l <= x < l' /\ used x = true).

(** ... and each piece has its range by induction: what is left is arithmetic *)
Ltac fin :=
  repeat match goal with
         | Hi : In ?j (jumps ?a), H : forall j, In j (jumps ?a) -> _ |- _ => specialize (H _ Hi)
         | Hi : In ?j (lbls ?a), H : forall x, In x (lbls ?a) -> _ |- _ => specialize (H _ Hi)
         | Hk : In ?k ?cls, Hi : In ?j (jumps ?k), H : forall k j, In k ?cls -> In j (jumps k) -> _ |- _ => specialize (H _ _ Hk Hi)
         | Hk : In ?k ?cls, Hi : In ?j (lbls ?k), H : forall k x, In k ?cls -> In x (lbls k) -> _ |- _ => specialize (H _ _ Hk Hi)
         | H : _ /\ _ |- _ => destruct H
         end; subst;
  first [lia | split; [lia|assumption]].

Lemma nodup_lbl_if n : NoDup (lbls (lbl_if n)).
Proof. unfold Emit.lbl_if. destruct (used n); cbn; repeat constructor. intros []. Qed.

(** the labels of a composed fragment are distinct when those of each piece are, and those of two pieces are apart *)
Ltac nd :=
  repeat match goal with
         | |- NoDup (lbls (_ ++ _)) => rewrite lbls_app; apply NoDup_app_intro
         | |- NoDup (lbls [KBlock _]) => rewrite lbls_block
         | |- NoDup (lbls [KSwitch _ _]) => rewrite lbls_switch; apply NoDup_app_intro
         | |- NoDup (lbls (lbl_if _)) => apply nodup_lbl_if
         | |- NoDup (lbls (if _ then _ else _)) => rewrite lbls_usep; constructor
         | |- NoDup (lbls (brk _)) => rewrite lbls_brk; constructor
         | |- NoDup (lbls []) => constructor
         | |- NoDup [] => constructor
         | |- NoDup (lbls (_ :: _)) => rewrite lbls_cons; cbn [lbls1 app]
         | |- NoDup _ => assumption
         end.

(** the labels of a fragment lie in the range it allocated, so those of two fragments are apart *)
Theorem ranges_unique :
  (forall ko l c l' ll, Em ko l c l' ll -> rngE ko l c l' ll /\ NoDup (lbls c)) /\
  (forall ko ok l c l', AltEm ko ok l c l' -> rngA ko ok l c l' /\ NoDup (lbls c)) /\
  (forall ko l cls l', CasesEm ko l cls l' -> rngC ko l cls l' /\ NoDup (flat_map lbls cls)).
Proof.
  apply Em_mutind; unfold rngE, rngA, rngC; intros.
  all: repeat match goal with H : _ /\ _ |- _ => destruct H end.
  all: (split; [split; [lia|split; intros; members; try discriminate; fin]|nd]).
  all: try (intros; members; try discriminate; fin; fail).
  - constructor.
  - cbn [flat_map]. fold (lbls (c ++ brk ll)). apply NoDup_app_intro; [nd; intros; members|assumption|intros; members; fin].
Qed.

Theorem ranges :
  (forall ko l c l' ll, Em ko l c l' ll -> rngE ko l c l' ll) /\
  (forall ko ok l c l', AltEm ko ok l c l' -> rngA ko ok l c l') /\
  (forall ko l cls l', CasesEm ko l cls l' -> rngC ko l cls l').
Proof. split; [|split]; intros; eapply ranges_unique; eassumption. Qed.

Lemma scoped_nil sc : scoped sc [] = true.  Proof. reflexivity. Qed.
Lemma scoped_block sc b : scoped sc [KBlock b] = scoped sc b.
Proof. unfold scoped. cbn [dlbls flat_map dlbl1 app forallb scoped1]. rewrite andb_true_r. reflexivity. Qed.
Lemma scoped_jmp sc t : In t sc -> scoped sc [KJmp t] = true.
Proof. intros H. unfold scoped. cbn. rewrite andb_true_r. apply memb_In. exact H. Qed.
Lemma scoped_cjmp sc t : In t sc -> scoped sc [KCJmp t] = true.
Proof. intros H. unfold scoped. cbn. rewrite andb_true_r. apply memb_In. exact H. Qed.
Lemma scoped_lbl_if sc n : scoped sc (lbl_if n) = true.
Proof. unfold Emit.lbl_if. destruct (used n); reflexivity. Qed.
Lemma scoped_brk sc ll : scoped sc (brk ll) = true.  Proof. destruct ll; reflexivity. Qed.
Lemma scoped_usep sc ok : scoped sc (if ast then [KUseP ok] else [KUseP ok; KSt]) = true.
Proof. destruct ast; reflexivity. Qed.
Lemma scoped_cons sc x c : scoped (dlbls c ++ sc) [x] = true -> scoped (dlbl1 x ++ sc) c = true -> scoped sc (x :: c) = true.
Proof.
  intros H1 H2. change (x :: c) with ([x] ++ c). apply scoped_app; [exact H1|].
  unfold dlbls at 1. cbn [flat_map]. rewrite app_nil_r. exact H2.
Qed.
Lemma in_dlbls_lbl_if n : used n = true -> In n (dlbls (lbl_if n)).
Proof. intros H. unfold Emit.lbl_if. rewrite H. left. reflexivity. Qed.
Lemma scoped_switch sc cls d : (forall k, In k cls -> scoped sc k = true) -> scoped sc d = true -> scoped sc [KSwitch cls d] = true.
Proof.
  intros Hc Hd. unfold scoped. cbn [dlbls flat_map dlbl1 app forallb scoped1]. rewrite andb_true_r.
  apply andb_true_iff. split; [|exact Hd]. apply forallb_forall. intros k Hk. apply (Hc k Hk).
Qed.

(** a label that a fragment does not jump to need not be visible; [lbl_if] prints those that are used *)
Lemma scoped_unless (k : nat) sc c :
  scoped (k :: sc) c = true -> forallb used (jumps c) = true -> (used k = true -> In k sc) -> scoped sc c = true.
Proof.
  intros H Hu Hk. eapply scoped_mono; [|exact H].
  intros n Hj [<-|Hn]; [apply Hk, (proj1 (forallb_forall _ _) Hu _ Hj)|exact Hn].
Qed.

(** [Hu]: every jump of a composed fragment goes to a used label; afterwards the same is in the context for
    each piece, and for each label the fragment jumps to by itself *)
Ltac hu_split Hu :=
  cbn [flat_map] in Hu;
  repeat first [rewrite jumps_app in Hu | rewrite jumps_block in Hu | rewrite jumps_switch in Hu | rewrite jumps_lbl_if in Hu
               | rewrite jumps_usep in Hu | rewrite jumps_brk in Hu | rewrite jumps_cons in Hu];
  cbn [jumps1 app] in Hu; rewrite ?forallb_app in Hu; cbn [forallb] in Hu;
  repeat rewrite andb_true_iff in Hu; decompose [and] Hu; clear Hu.
(** a label is in a scope made of the labels of the pieces around the goto; [lbl_if] declares the one it prints *)
Ltac in_scope :=
  repeat first [rewrite in_app_iff | rewrite dlbls_app | progress cbn [dlbls flat_map dlbl1 app In]]; auto 12 using in_dlbls_lbl_if.

(** the block that Not, Query, Star and Plus share: save at [s], run [c] failing to [s], leave for [t] *)
Lemma scoped_frame sc s t c :
  (forall sc', In s sc' -> scoped sc' c = true) -> forallb used (jumps c) = true -> In t sc ->
  scoped sc [KBlock (KSave s :: c ++ [KJmp t] ++ lbl_if s ++ [KRestore s])] = true.
Proof.
  intros Hc Hu Ht. rewrite scoped_block. apply scoped_cons; [reflexivity|]. apply scoped_app.
  - apply (scoped_unless s); [apply Hc; left; reflexivity|exact Hu|intros; in_scope].
  - apply scoped_cons; [apply scoped_jmp; in_scope|]. apply scoped_app; [apply scoped_lbl_if|reflexivity].
Qed.

(** A fragment is in order wherever its failure label is visible, if the labels it jumps to get printed. *)
Theorem gotos_in_scope :
  (forall ko l c l' ll, Em ko l c l' ll ->
     forallb used (jumps c) = true -> forall sc, In ko sc -> scoped sc c = true) /\
  (forall ko ok l c l', AltEm ko ok l c l' ->
     forallb used (jumps c) = true -> forall sc, In ko sc -> In ok sc -> scoped sc c = true) /\
  (forall ko l cls l', CasesEm ko l cls l' ->
     forallb used (flat_map jumps cls) = true -> forall sc, In ko sc -> forall k, In k cls -> scoped sc k = true).
Proof.
  apply Em_mutind; intros.
  - reflexivity.
  - apply scoped_cjmp. assumption.
  - reflexivity.
  - apply scoped_cons; [apply scoped_cjmp; in_scope|reflexivity].
  - (* pred *) rewrite scoped_block. apply scoped_cons; [reflexivity|]. apply scoped_cjmp. in_scope.
  - (* seq *) hu_split H3. apply scoped_app; [apply H0|apply H2]; first [assumption|in_scope].
  - (* ipush *) hu_split H1. rewrite scoped_block. apply scoped_cons; [reflexivity|]. apply scoped_app; [|reflexivity].
    apply H0; [assumption|in_scope].
  - reflexivity.
  - reflexivity.
  - (* alt *) hu_split H1. apply scoped_app; [|apply scoped_lbl_if]. rewrite scoped_block. apply scoped_cons; [reflexivity|].
    apply (scoped_unless ok); [apply H0; [assumption|in_scope..]|assumption|intros; in_scope].
  - (* switch *) hu_split H3. apply scoped_app; [|apply scoped_lbl_if]. rewrite scoped_block. apply scoped_switch.
    + apply H0; [assumption|in_scope].
    + apply scoped_app; [|apply scoped_brk]. apply H2; [assumption|in_scope].
  - (* and *) hu_split H1. rewrite scoped_block. apply scoped_cons; [reflexivity|]. apply scoped_app; [|reflexivity].
    apply H0; [assumption|in_scope].
  - (* not *) hu_split H1. apply scoped_frame; auto.
  - (* query *) hu_split H1. apply scoped_app; [|apply scoped_lbl_if]. apply scoped_frame; [auto..|in_scope].
  - (* star *) hu_split H1. apply scoped_app; [apply scoped_lbl_if|]. apply scoped_frame; [auto..|in_scope].
  - (* plus *) hu_split H3. apply scoped_app; [apply H0; [assumption|in_scope]|].
    apply scoped_app; [apply scoped_lbl_if|]. apply scoped_frame; [auto..|in_scope].
  - (* push *) hu_split H1. rewrite scoped_block. apply scoped_cons; [reflexivity|]. apply scoped_app; [|apply scoped_usep].
    apply H0; [assumption|in_scope].
  - reflexivity.
  - (* alt_one *) apply H0; assumption.
  - (* alt_cons *) hu_split H3. apply scoped_app.
    + apply (scoped_unless l); [apply H0; [assumption|in_scope]|assumption|intros; in_scope].
    + apply scoped_cons; [apply scoped_jmp; in_scope|]. apply scoped_app; [apply scoped_lbl_if|]. apply scoped_cons; [reflexivity|].
      apply H2; [assumption|in_scope..].
  - destruct H1.
  - (* cases_cons *) hu_split H3. destruct H5 as [<-|Hk].
    + apply scoped_app; [|apply scoped_brk]. apply H0; [assumption|in_scope].
    + apply H2; assumption.
Qed.


Lemma ends_lbl_app a b : ends_lbl (a ++ b) = match b with [] => ends_lbl a | _ => ends_lbl b end.
Proof.
  destruct b as [|y b]; [rewrite app_nil_r; reflexivity|]. unfold ends_lbl. rewrite rev_app_distr.
  destruct (rev (y :: b)) as [|z r] eqn:E; [|reflexivity].
  apply (f_equal (@length _)) in E. rewrite rev_length in E. discriminate.
Qed.
Lemma ends_lbl_if a n : (a <> [] -> ends_lbl a = false) -> a <> [] -> ends_lbl (a ++ lbl_if n) = used n.
Proof.
  intros Ha Hn. rewrite ends_lbl_app. unfold Emit.lbl_if. destruct (used n); [reflexivity|]. auto.
Qed.
Lemma ends_brk c ll : ll = ends_lbl c -> ends_lbl (c ++ brk ll) = false.
Proof. intros ->. rewrite ends_lbl_app. destruct (ends_lbl c) eqn:E; cbn [brk]; reflexivity. Qed.

Definition nodecl (c : list code) : bool := forallb (fun y => negb (is_decl y)) c.
Lemma nodecl_app a b : nodecl (a ++ b) = nodecl a && nodecl b.  Proof. apply forallb_app. Qed.
Lemma nodecl_suffix (f : code -> bool) c : nodecl c = true -> nodecl (drop_while f c) = true.
Proof.
  induction c as [|x c IH]; intros H; [reflexivity|]. cbn [drop_while]. destruct (f x); [|exact H].
  apply IH. cbn [nodecl forallb] in H. apply andb_true_iff in H. tauto.
Qed.
Lemma head_decls_cons d c : is_decl d = true -> nodecl c = true -> head_decls (d :: c) = true.
Proof.
  intros Hd Hc. unfold head_decls. assert (is_st d = false) by (destruct d; try discriminate; reflexivity).
  cbn [drop_while]. rewrite H. cbn [drop_while]. rewrite Hd. apply (nodecl_suffix is_decl c Hc).
Qed.
Lemma head_decls_nodecl c : nodecl c = true -> head_decls c = true.
Proof. intros H. unfold head_decls. apply (nodecl_suffix is_decl). apply (nodecl_suffix is_st). exact H. Qed.

Lemma forallb_lbl_if (p : code -> bool) n : p (KLbl n) = true -> forallb p (lbl_if n) = true.
Proof. intros H. unfold Emit.lbl_if. destruct (used n); cbn [forallb]; [rewrite H|]; reflexivity. Qed.
Lemma forallb_brk (p : code -> bool) ll : p KBrk = true -> forallb p (brk ll) = true.
Proof. intros H. destruct ll; cbn [brk forallb]; [rewrite H|]; reflexivity. Qed.
Lemma forallb_usep (p : code -> bool) ok :
  p (KUseP ok) = true -> p KSt = true -> forallb p (if ast then [KUseP ok] else [KUseP ok; KSt]) = true.
Proof. intros H1 H2. destruct ast; cbn [forallb]; rewrite H1, ?H2; reflexivity. Qed.

(** a check of a composed fragment, from the checks of its pieces *)
Ltac chk :=
  unfold nodecl in *;
  repeat first [rewrite forallb_app | rewrite forallb_lbl_if by reflexivity | rewrite forallb_brk by reflexivity
               | rewrite forallb_usep by reflexivity | rewrite head_decls_cons by first [reflexivity | chk]
               | progress cbn [forallb cases1 decl1 is_decl negb andb]];
  repeat match goal with H : _ = true |- _ => rewrite H; clear H end; rewrite ?andb_true_r; reflexivity.

Theorem local_checks :
  (forall ko l c l' ll, Em ko l c l' ll ->
     ll = ends_lbl c /\ forallb cases1 c = true /\ nodecl c = true /\ forallb decl1 c = true) /\
  (forall ko ok l c l', AltEm ko ok l c l' -> forallb cases1 c = true /\ nodecl c = true /\ forallb decl1 c = true) /\
  (forall ko l cls l', CasesEm ko l cls l' ->
     forallb (fun k => negb (ends_lbl k) && forallb cases1 k) cls = true /\
     forallb (fun k => nodecl k && forallb decl1 k) cls = true).
Proof.
  apply Em_mutind; intros; repeat match goal with H : _ /\ _ |- _ => destruct H end.
  all: repeat split; try reflexivity; try assumption.
  all: try (chk; fail).
  all: try (symmetry; apply ends_lbl_if; [reflexivity|discriminate]).
  - (* seq *) rewrite ends_lbl_app. destruct b; assumption.
  - (* star *) rewrite ends_lbl_app. reflexivity.
  - (* plus *) rewrite app_assoc, ends_lbl_app. reflexivity.
  - (* cases_cons *) cbn [forallb]. match goal with H : ll = ends_lbl c |- _ => rewrite (ends_brk _ _ H) end. chk.
Qed.

End Shape.

Theorem Em_wellformed ast used ko l c l' ll :
  Em ast used ko l c l' ll ->
  l <= l' /\
  (forall j, In j (jumps c) -> j = ko \/ l <= j < l') /\
  (forall x, In x (lbls c) -> l <= x < l' /\ used x = true) /\
  NoDup (lbls c) /\
  ((forall j, In j (jumps c) -> used j = true) -> scoped [ko] c = true) /\
  ll = ends_lbl c /\ forallb cases1 c = true /\
  nodecl c = true /\ forallb decl1 c = true.
Proof.
  intros H. destruct (proj1 (ranges_unique ast used) _ _ _ _ _ H) as ((A1 & A2 & A3) & B).
  split; [exact A1|]. split; [exact A2|]. split; [exact A3|]. split; [exact B|].
  split; [|exact (proj1 (local_checks ast used) _ _ _ _ _ H)].
  intros Hu. apply (proj1 (gotos_in_scope ast used) _ _ _ _ _ H); [apply forallb_forall, Hu|left; reflexivity].
Qed.

(** the label numbering and the jumps do not depend on which labels get printed
    (so the dry pass, which knows no label yet, sees exactly the jumps of the real pass) *)
Section Indep.
Variable g : grammar.
Variable ast : bool.
Variable inl asu : nat -> bool.
Variable u1 u2 : nat -> bool.

Definition same_as {A V} (v : A -> V) (p1 p2 : A * nat) : Prop := snd p1 = snd p2 /\ v (fst p1) = v (fst p2).
Definition same (r1 r2 : res) : Prop := same_as jumps (fst r1) (fst r2).
Definition fsame (f1 f2 : expr -> nat -> bool -> bool -> nat -> res) : Prop :=
  forall e ko pd mk l, same (f1 e ko pd mk l) (f2 e ko pd mk l).

Lemma same_as_bind {A V B} (v : A -> V) (R : B -> B -> Prop) (p1 p2 : A * nat) (K1 K2 : A -> nat -> B) :
  same_as v p1 p2 -> (forall a1 a2 l, v a1 = v a2 -> R (K1 a1 l) (K2 a2 l)) ->
  R (let '(a, l) := p1 in K1 a l) (let '(a, l) := p2 in K2 a l).
Proof. destruct p1 as [a1 l1], p2 as [a2 l2]. intros [E1 E2] H. cbn [fst snd] in *. subst l2. apply H, E2. Qed.
Lemma same_bind {B} (R : B -> B -> Prop) (r1 r2 : res) (K1 K2 : list code -> nat -> bool -> B) :
  same r1 r2 -> (forall c1 c2 l b1 b2, jumps c1 = jumps c2 -> R (K1 c1 l b1) (K2 c2 l b2)) ->
  R (let '(c, l, b) := r1 in K1 c l b) (let '(c, l, b) := r2 in K2 c l b).
Proof. destruct r1 as [p1 b1], r2 as [p2 b2]. intros E H. apply (same_as_bind jumps); [exact E|]. intros; apply H; assumption. Qed.

(** what is compared in the end: the same code around parts with the same jumps *)
Ltac same_jumps :=
  split; [reflexivity|]; cbn [fst];
  repeat first [rewrite jumps_app | rewrite jumps_block | rewrite jumps_switch | rewrite jumps_lbl_if | rewrite jumps_cons];
  repeat match goal with E : _ = _ |- _ => rewrite E; clear E end; try reflexivity.

Lemma seq_same f1 f2 : fsame f1 f2 -> forall es ko pd mk l ll1 ll2,
  same (seq_emit f1 es ko pd mk l ll1) (seq_emit f2 es ko pd mk l ll2).
Proof.
  intros Hf. induction es as [|x es IH]; intros ko pd mk l ll1 ll2; cbn [seq_emit]; [split; reflexivity|].
  apply same_bind; [apply Hf|]. intros c1 c2 l1 b1 b2 E.
  apply same_bind; [apply IH|]. intros d1 d2 l2 e1 e2 E'. same_jumps.
Qed.

Lemma alt_same f1 f2 : fsame f1 f2 -> forall es ko ok l,
  same_as jumps (alt_emit u1 f1 es ko ok l) (alt_emit u2 f2 es ko ok l).
Proof.
  intros Hf. induction es as [|x es IH]; intros ko ok l; cbn [alt_emit]; [split; reflexivity|].
  destruct es as [|y es]; (apply same_bind; [apply Hf|]; intros c1 c2 l1 _ _ E); [split; [reflexivity|exact E]|].
  apply (same_as_bind jumps); [apply IH|]. intros d1 d2 l2 E'. same_jumps.
Qed.

Lemma cases_same f1 f2 : fsame f1 f2 -> forall cs ko l,
  same_as (flat_map jumps) (cases_emit f1 cs ko l) (cases_emit f2 cs ko l).
Proof.
  intros Hf. induction cs as [|[keys b] cs IH]; intros ko l; cbn [cases_emit]; [split; reflexivity|].
  apply same_bind; [apply Hf|]. intros c1 c2 l1 b1 b2 E.
  apply (same_as_bind (flat_map jumps)); [apply IH|]. intros k1 k2 l2 E'. split; [reflexivity|].
  cbn [fst flat_map]. rewrite !jumps_app, E, E'. destruct b1, b2; reflexivity.
Qed.

Lemma ipush_same f1 f2 : fsame f1 f2 -> forall r ko pd mk l, same (ipush_emit g f1 r ko pd mk l) (ipush_emit g f2 r ko pd mk l).
Proof.
  intros Hf r ko pd mk l. unfold ipush_emit. destruct (nth_error g r) as [[b|k|]|]; try (split; reflexivity).
  apply same_bind; [apply Hf|]. intros c1 c2 l1 _ _ E. same_jumps.
Qed.

Lemma emit_same n : fsame (emit g ast inl asu u1 n) (emit g ast inl asu u2 n).
Proof.
  induction n as [|n IH]; intros e ko pd mk l; [split; reflexivity|].
  destruct e; cbn [emit].
  (* one operand, one block around its code: And, Not, Query, Star and Push, by their places among the constructors of [expr] *)
  11-14, 16: (apply same_bind; [apply IH|]; intros c1 c2 l1 _ _ E; same_jumps).
  all: try (split; reflexivity).
  - (* EName *) destruct (inl r); [|destruct (asu r); split; reflexivity].
    apply same_bind; [apply ipush_same, IH|]. intros c1 c2 l1 _ _ E. split; [reflexivity|exact E].
  - (* ESeq *) apply seq_same, IH.
  - (* EAlt *) apply (same_as_bind jumps); [apply alt_same, IH|]. intros c1 c2 l1 E. same_jumps.
  - (* EPlus *) apply same_bind; [apply IH|]. intros c1 c2 l1 _ _ E.
    apply same_bind; [apply IH|]. intros d1 d2 l2 _ _ E'. same_jumps.
  - (* ESwitch *) apply (same_as_bind (flat_map jumps)); [apply cases_same, IH|]. intros k1 k2 l1 E.
    apply same_bind; [apply IH|]. intros d1 d2 l2 b1 b2 E'. same_jumps. destruct b1, b2; reflexivity.
Qed.
End Indep.

Definition fn_ok (F : list code) : Prop :=
  NoDup (lbls F) /\ scoped [] F = true /\ (forall x, In x (lbls F) -> In x (jumps F)) /\
  head_decls F = true /\ forallb decl1 F = true /\ forallb cases1 F = true.

Lemma rule_emit_wf g ast inl asu used n r ko F l1 :
  rule_emit g ast inl asu used n r ko = (F, l1) ->
  S ko <= l1 /\
  (forall j, In j (jumps F) -> ko <= j < l1) /\
  (forall x, In x (lbls F) -> ko <= x < l1 /\ used x = true) /\
  NoDup (lbls F) /\ ((forall j, In j (jumps F) -> used j = true) -> scoped [] F = true) /\
  head_decls F = true /\ forallb decl1 F = true /\ forallb cases1 F = true.
Proof.
  unfold rule_emit. destruct (ipush_emit g (emit g ast inl asu used n) r ko false false (S ko)) as [[c lx] llx] eqn:Ec.
  intros H. inv H.
  pose proof (ipush_Em _ _ _ _ _ _ _ _ _ _ _ _ _ _ Ec) as Em.
  destruct (Em_wellformed _ _ _ _ _ _ _ Em) as (A1 & A2 & A3 & B & C & _ & D2 & E1 & E2).
  set (pre1 := if ast then [KSt] else []).
  set (pre2 := if (ast || used ko)%bool then [KSave ko] else []).
  set (pm := if ast then [KMemo ko] else []).
  set (post := pm ++ KSt :: (if used ko then KLbl ko :: pm ++ [KRestore ko; KSt] else [])).
  assert (JF : jumps (pre1 ++ pre2 ++ c ++ post) = jumps c).
  { rewrite !jumps_app. unfold pre1, pre2, post, pm. destruct ast, (used ko); apply app_nil_r. }
  assert (LF : lbls (pre1 ++ pre2 ++ c ++ post) = lbls c ++ (if used ko then [ko] else [])).
  { rewrite !lbls_app. unfold pre1, pre2, post, pm. destruct ast, (used ko); reflexivity. }
  assert (Dpost : dlbls post = if used ko then [ko] else []) by (unfold post, pm; destruct ast, (used ko); reflexivity).
  assert (R : forall x, x = ko \/ S ko <= x < l1 -> ko <= x < l1) by (clear -A1; lia).
  rewrite JF, LF. split; [exact A1|]. split; [|split; [|split; [|split; [|split; [|split]]]]].
  - intros j Hj. apply R, A2, Hj.
  - intros x Hx. apply in_app_or in Hx as [Hx|Hx].
    + destruct (A3 _ Hx) as [Hr Hu]. split; [apply R; right; exact Hr|exact Hu].
    + destruct (used ko) eqn:Eu; [|destruct Hx]. destruct Hx as [<-|[]]. split; [apply R; left; reflexivity|exact Eu].
  - apply NoDup_app_intro; [exact B|destruct (used ko); repeat constructor; intros []|].
    intros x Hx Hk. destruct (A3 _ Hx) as [Hr _]. destruct (used ko); [|destruct Hk]. destruct Hk as [<-|[]]. clear -Hr. lia.
  - intros Hu. apply scoped_app; [unfold pre1; destruct ast; reflexivity|].
    apply scoped_app; [unfold pre2; destruct ast, (used ko); reflexivity|].
    apply scoped_app; [|unfold post, pm; destruct ast, (used ko); reflexivity].
    eapply scoped_mono; [|apply C; exact Hu]. intros j Hj [<-|[]]. rewrite Dpost, (Hu _ Hj). left. reflexivity.
  - assert (Np : nodecl (c ++ post) = true).
    { rewrite nodecl_app, E1. unfold post, pm. destruct ast, (used ko); reflexivity. }
    unfold pre1, pre2. destruct ast; cbn [orb app].
    + exact (nodecl_suffix is_decl _ Np).
    + destruct (used ko); [apply head_decls_cons; [reflexivity|exact Np]|apply head_decls_nodecl; exact Np].
  - rewrite !forallb_app, E2. unfold pre1, pre2, post, pm. destruct ast, (used ko); reflexivity.
  - rewrite !forallb_app, D2. unfold pre1, pre2, post, pm. destruct ast, (used ko); reflexivity.
Qed.

Definition all_jumps (l : list (option (list code))) : list nat :=
  flat_map (fun o => match o with Some c => jumps c | None => [] end) l.

Lemma all_jumps_map l1 l2 : map (option_map jumps) l1 = map (option_map jumps) l2 -> all_jumps l1 = all_jumps l2.
Proof.
  revert l2. induction l1 as [|o1 l1 IH]; intros [|o2 l2] H; try discriminate; [reflexivity|].
  cbn [map] in H. inv H. unfold all_jumps. cbn [flat_map]. fold (all_jumps l1). fold (all_jumps l2). rewrite (IH _ H2).
  destruct o1, o2; cbn [option_map] in *; try discriminate; [inv H1; rewrite H0; reflexivity|reflexivity].
Qed.

Lemma in_all_jumps x l : In x (all_jumps l) -> exists F, In (Some F) l /\ In x (jumps F).
Proof. intros H. apply in_flat_map in H as ([F|] & HF & Hx); [eauto|destruct Hx]. Qed.

Section File.
Variable g : grammar.
Variable ast inline : bool.
Variable asu : nat -> bool.
Variable cr : list bool * list nat.
Variable fl : nat.
Notation undef := (fun _ : nat => false).        (* no name without a definition *)
Notation pass := (pass g ast inline asu undef cr fl).
Notation once := (once inline cr).
Notation passu ud := (Emit.pass g ast inline asu ud cr fl).
Notation rule_emit u := (rule_emit g ast once asu u fl).

(** what [pass] does with one rule: the function it emits, if any, and the next free label *)
Definition pstep (ud : nat -> bool) (real : bool) (u : nat -> bool) (rb : rbody) (r l : nat) : option (list code) * nat :=
  if match rb with RNil => if ud r then real else true | _ => false end then (None, l)
  else if (negb (reached cr r) || once r && negb (l =? 0))%bool then (None, S l)
  else let '(c, l1) := rule_emit u r l in (Some c, l1).

Lemma pass_cons ud real u rb rs r l :
  passu ud real u (rb :: rs) r l = fst (pstep ud real u rb r l) :: passu ud real u rs (S r) (snd (pstep ud real u rb r l)).
Proof.
  unfold pstep. cbn [Emit.pass]. destruct (match rb with RNil => if ud r then real else true | _ => false end); [reflexivity|].
  destruct (negb (reached cr r)); [reflexivity|]. cbn [orb]. destruct (once r && negb (l =? 0))%bool; [reflexivity|].
  destruct (rule_emit u r l). reflexivity.
Qed.

Lemma pstep_cases ud real u rb r l :
  pstep ud real u rb r l = (None, l) \/ pstep ud real u rb r l = (None, S l) \/
  pstep ud real u rb r l = (Some (fst (rule_emit u r l)), snd (rule_emit u r l)).
Proof.
  unfold pstep. destruct (match rb with RNil => if ud r then real else true | _ => false end); [auto|].
  destruct (negb (reached cr r) || once r && negb (l =? 0))%bool; [auto|]. destruct (rule_emit u r l). auto.
Qed.

Lemma rule_emit_same u1 u2 r ko : same_as jumps (rule_emit u1 r ko) (rule_emit u2 r ko).
Proof.
  unfold Emit.rule_emit. apply same_bind; [apply ipush_same, emit_same|]. intros c1 c2 l1 _ _ E.
  split; [reflexivity|]. cbn [fst]. rewrite !jumps_app, E. destruct ast, (u1 ko), (u2 ko); reflexivity.
Qed.

Lemma pstep_same u1 u2 b1 b2 rb r l : same_as (option_map jumps) (pstep undef b1 u1 rb r l) (pstep undef b2 u2 rb r l).
Proof.
  unfold pstep. destruct rb; try (split; reflexivity).
  all: destruct (negb (reached cr r) || once r && negb (l =? 0))%bool; [split; reflexivity|].
  all: apply (same_as_bind jumps); [apply rule_emit_same|]; intros c1 c2 l1 E; exact (conj eq_refl (f_equal Some E)).
Qed.

Lemma pass_same u1 u2 b1 b2 rs : forall r l,
  map (option_map jumps) (pass b1 u1 rs r l) = map (option_map jumps) (pass b2 u2 rs r l).
Proof.
  induction rs as [|rb rs IH]; intros r l; [reflexivity|]. rewrite !pass_cons. cbn [map].
  destruct (pstep_same u1 u2 b1 b2 rb r l) as [E1 E2]. rewrite E1, E2, IH. reflexivity.
Qed.

Lemma pass_fn ud real u rs : forall r l F,
  In (Some F) (passu ud real u rs r l) -> exists r' l', F = fst (rule_emit u r' l').
Proof.
  induction rs as [|rb rs IH]; intros r l F H; [destruct H|]. rewrite pass_cons in H.
  destruct H as [H|H]; [|exact (IH _ _ _ H)].
  destruct (pstep_cases ud real u rb r l) as [E|[E|E]]; rewrite E in H; inv H. eauto.
Qed.

(** the functions take their labels from successive ranges, so a label jumped to from anywhere in the
    file is jumped to from its own function *)
Lemma pass_ranges ud real u rs : forall r l F,
  In (Some F) (passu ud real u rs r l) ->
  (forall x, In x (lbls F) \/ In x (jumps F) -> l <= x) /\
  (forall x, In x (lbls F) -> In x (all_jumps (passu ud real u rs r l)) -> In x (jumps F)).
Proof.
  induction rs as [|rb rs IH]; intros r l F HF; [destruct HF|]. rewrite pass_cons in *.
  destruct (rule_emit_wf _ _ _ _ _ _ _ _ _ _ (surjective_pairing (rule_emit u r l))) as (W1 & W2 & W3 & _).
  destruct (pstep_cases ud real u rb r l) as [E|[E|E]]; rewrite E in *; cbn [fst snd] in *.
  - destruct HF as [HF|HF]; [discriminate|]. exact (IH _ _ _ HF).
  - destruct HF as [HF|HF]; [discriminate|]. destruct (IH _ _ _ HF) as [I1 I2].
    split; [intros x Hx; apply Nat.lt_le_incl, I1, Hx|exact I2].
  - set (F0 := fst (rule_emit u r l)) in *. set (l1 := snd (rule_emit u r l)) in *.
    change (all_jumps (Some F0 :: ?t)) with (jumps F0 ++ all_jumps t).
    destruct HF as [HF|HF].
    + inv HF. split; [intros x [Hx|Hx]; [apply (W3 x Hx)|apply (W2 x Hx)]|].
      intros x Hx Hj. apply in_app_or in Hj as [Hj|Hj]; [exact Hj|].
      apply in_all_jumps in Hj as (F' & HF' & Hj). destruct (IH _ _ _ HF') as [I1 _].
      specialize (I1 x (or_intror Hj)). destruct (W3 x Hx) as [[_ Hlt] _]. clear -I1 Hlt. lia.
    + destruct (IH _ _ _ HF) as [I1 I2].
      split; [intros x Hx; specialize (I1 x Hx); clear -I1 W1; lia|].
      intros x Hx Hj. apply in_app_or in Hj as [Hj|Hj]; [|exact (I2 x Hx Hj)].
      specialize (I1 x (or_introl Hx)). destruct (W2 x Hj) as [_ Hlt]. clear -I1 Hlt. lia.
Qed.

Lemma rule_emit_nobody_jumps u r ko :
  (forall b, nth_error g r <> Some (RBody b)) -> jumps (fst (rule_emit u r ko)) = [].
Proof.
  intros Hn. unfold Emit.rule_emit, ipush_emit.
  destruct (nth_error g r) as [[b|k|]|] eqn:E; [exfalso; eapply Hn; reflexivity| | |]; cbn [fst];
    rewrite !jumps_app; destruct ast, (u ko); reflexivity.
Qed.

Lemma pass_nobody_jumps ud real u rs : forall r l,
  (forall i b, r <= i -> nth_error g i <> Some (RBody b)) -> all_jumps (passu ud real u rs r l) = [].
Proof.
  induction rs as [|rb rs IH]; intros r l H; [reflexivity|]. rewrite pass_cons.
  assert (E0 : match fst (pstep ud real u rb r l) with Some c => jumps c | None => [] end = []).
  { destruct (pstep_cases ud real u rb r l) as [E|[E|E]]; rewrite E; try reflexivity.
    apply rule_emit_nobody_jumps. intros b. apply H, le_n. }
  unfold all_jumps. cbn [flat_map]. rewrite E0. apply IH. intros i b Hi. apply H, Nat.lt_le_incl, Hi.
Qed.

Lemma pass_app_jumps ud real u rs2 rs1 : forall r l,
  (forall i b, r + length rs1 <= i -> nth_error g i <> Some (RBody b)) ->
  all_jumps (passu ud real u (rs1 ++ rs2) r l) = all_jumps (passu ud real u rs1 r l).
Proof.
  induction rs1 as [|rb rs1 IH]; intros r l H.
  - apply pass_nobody_jumps. intros i b Hi. apply H. cbn [length]. rewrite Nat.add_0_r. exact Hi.
  - cbn [app]. rewrite !pass_cons. unfold all_jumps. cbn [flat_map]. f_equal. apply IH.
    intros i b Hi. apply H. cbn [length]. rewrite Nat.add_succ_r. exact Hi.
Qed.

Lemma pass_undef ud real u rs : forall r l,
  (forall i, nth_error rs i = Some RNil -> ud (r + i) = false) -> passu ud real u rs r l = pass real u rs r l.
Proof.
  induction rs as [|rb rs IH]; intros r l H; [reflexivity|]. rewrite !pass_cons.
  assert (E : pstep ud real u rb r l = pstep undef real u rb r l).
  { unfold pstep. destruct rb; try reflexivity. rewrite <- (Nat.add_0_r r) at 1. rewrite (H 0 eq_refl). reflexivity. }
  rewrite E, IH; [reflexivity|]. intros i Hi. rewrite Nat.add_succ_comm. exact (H (S i) Hi).
Qed.

End File.

(** Every rule function of a generated file is well formed as far as labels, gotos, declarations and case
    clauses go.  The dry pass also walks the slots of names without a definition ([undef]): they take a
    label there and none in the real pass.  That shifts no label anybody jumps to as long as such slots
    stand behind the last rule with a body, where no function contains a goto. *)
Theorem emit_all_wellformed_behind g1 g2 ast inline asu undef :
  (forall i, nth_error g1 i = Some RNil -> undef i = false) ->
  (forall rb, In rb g2 -> forall x, rb <> RBody x) ->
  Forall (fun o => match o with Some F => fn_ok F | None => True end) (emit_all (g1 ++ g2) ast inline asu undef).
Proof.
  intros H1 H2. unfold emit_all.
  set (cr := count_rules (g1 ++ g2)). set (fl := fuel (g1 ++ g2)).
  set (dj := dry_jumps_of (g1 ++ g2) ast inline asu undef cr fl). set (used := used_of dj).
  assert (Ej : all_jumps (pass (g1 ++ g2) ast inline asu undef cr fl true used (g1 ++ g2) 0 0) = dj).
  { unfold dj, dry_jumps_of. fold all_jumps.
    assert (Hg2 : forall i b, 0 + length g1 <= i -> nth_error (g1 ++ g2) i <> Some (RBody b)).
    { intros i b Hi E. rewrite nth_error_app2 in E by exact Hi. exact (H2 _ (nth_error_In _ _ E) b eq_refl). }
    rewrite !pass_app_jumps by exact Hg2. rewrite (pass_undef _ _ _ _ _ _ undef true), (pass_undef _ _ _ _ _ _ undef false) by exact H1.
    apply all_jumps_map, pass_same. }
  assert (Hused : forall x, used x = true <-> In x dj) by (intros x; apply memb_In).
  apply Forall_forall. intros [F|] Ho; [|exact I].
  destruct (pass_ranges _ _ _ _ _ _ _ _ _ _ _ _ _ Ho) as [_ R].
  assert (Hu : forall j, In j (jumps F) -> used j = true).
  { intros j Hj. apply Hused. rewrite <- Ej. apply in_flat_map. exists (Some F). split; [exact Ho|exact Hj]. }
  apply pass_fn in Ho as (r & l & EF).
  destruct (rule_emit_wf _ _ _ _ _ _ _ _ _ _ (surjective_pairing (rule_emit (g1 ++ g2) ast (once inline cr) asu used fl r l)))
    as (_ & _ & W3 & W4 & W5 & W6 & W7 & W8).
  rewrite <- EF in *.
  split; [exact W4|]. split; [exact (W5 Hu)|]. split; [|auto].
  intros x Hx. apply (R x Hx). rewrite Ej. apply Hused. apply (W3 x Hx).
Qed.

Theorem emit_all_wellformed g ast inline asu :
  Forall (fun o => match o with Some F => fn_ok F | None => True end) (emit_all g ast inline asu (fun _ => false)).
Proof. rewrite <- (app_nil_r g). apply emit_all_wellformed_behind; [reflexivity|intros rb []]. Qed.

(** the user's rules come first; behind them stand only rules made for actions, for undefined names and
    for captures (Model/Link.v) *)
Theorem emit_all_wellformed_linked bs app ast inline asu undef :
  (forall rb, In rb app -> forall x, rb <> RBody x) ->
  Forall (fun o => match o with Some F => fn_ok F | None => True end) (emit_all (map RBody bs ++ app) ast inline asu undef).
Proof.
  apply emit_all_wellformed_behind. intros i Hi. apply nth_error_In, in_map_iff in Hi as (b & Hb & _). discriminate.
Qed.
