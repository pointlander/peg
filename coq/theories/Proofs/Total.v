(** Ford's theorem for the reference semantics: on a well-formed grammar (wf_b with any certificate)
    every expression that satisfies the local conditions has a result on every input position:
    [peg_ev] never runs forever.  Hence the conditional theorems of Proofs/Top.v hold for every input. *)
From PegV Require Import Base.Tac Base.ListX Spec.Syntax Spec.Peg Spec.WF Model.Analyses Proofs.DiagProofs Proofs.PegFacts Proofs.PegInv Proofs.Forest.

Lemma sum_in {A} (f : A -> nat) x l : In x l -> f x <= fold_right (fun y a => f y + a) 0 l.
Proof.
  induction l as [|y l IH]; intros H; [destruct H|]. cbn [fold_right].
  destruct H as [->|H]; [lia|]. specialize (IH H). lia.
Qed.

Lemma find_case_in cs c e1 : find_case cs c = Some e1 -> exists keys, In (keys, e1) cs.
Proof.
  unfold find_case. destruct (find_case_keys cs c) as [[keys e]|] eqn:E; intros H; inv H.
  exists keys. exact (proj1 (find_case_keys_spec _ _ _ _ E)).
Qed.

Section Rank.
Variable tab : list bool.
Variable rank : list nat.
Notation nul := (nul tab).
Notation heads := (heads tab).

Definition hr (l : list nat) : nat := fold_right (fun r a => Nat.max (S (rk rank r)) a) 0 l.
Definition hrank (e : expr) : nat := hr (heads e).

Lemma hr_app l1 l2 : hr (l1 ++ l2) = Nat.max (hr l1) (hr l2).
Proof. unfold hr. induction l1 as [|x l1 IH]; cbn [fold_right app]; [reflexivity|]. rewrite IH. lia. Qed.

Lemma hr_flat_map {A} (f : A -> list nat) x xs : In x xs -> hr (f x) <= hr (flat_map f xs).
Proof.
  induction xs as [|y xs IH]; intros H; [destruct H|]. cbn [flat_map]. rewrite hr_app.
  destruct H as [->|H]; [lia|]. specialize (IH H). lia.
Qed.

Lemma hr_lt l r : forallb (fun r' => rk rank r' <? rk rank r) l = true -> hr l <= rk rank r.
Proof.
  unfold hr. induction l as [|y l IH]; cbn [fold_right forallb]; intros H; [lia|].
  apply andb_true_iff in H as [H1 H2]. apply Nat.ltb_lt in H1. specialize (IH H2). lia.
Qed.

Lemma heads_seq_cons x es :
  heads (ESeq (x :: es)) = heads x ++ (if nul x then heads (ESeq es) else []).
Proof. reflexivity. Qed.

(** [x] at [q] is evaluated before [e] at [p] can return: it starts further right, or at the same place
    with head rules of lower rank, or of no higher rank and smaller *)
Definition below (x : expr) (q : nat) (e : expr) (p : nat) : Prop :=
  p < q \/ q = p /\ (hrank x < hrank e \/ hrank x <= hrank e /\ esize x < esize e).

Lemma below_rank x e p : hrank x < hrank e -> below x p e p.
Proof. intros H. right. split; [reflexivity|left; exact H]. Qed.

Lemma below_unary ptx K h e p : unary ptx K h -> below e p (K e) p.
Proof. intros U. right. split; [reflexivity|right]. destruct U; cbn [esize]; unfold hrank; cbn [WF.heads]; lia. Qed.

Lemma below_operand e p : below e p (EStar e) p /\ below e p (EPlus e) p.
Proof. split; (right; split; [reflexivity|right]); cbn [esize]; unfold hrank; cbn [WF.heads]; lia. Qed.

Lemma hrank_seq_head x es : hrank x <= hrank (ESeq (x :: es)).
Proof. unfold hrank. rewrite heads_seq_cons, hr_app. lia. Qed.

Lemma below_seq_head x es p : below x p (ESeq (x :: es)) p.
Proof.
  right. split; [reflexivity|right]. split; [apply hrank_seq_head|].
  pose proof (esize_pos (ESeq es)) as E. cbn [esize fold_right] in *. lia.
Qed.

Lemma seq_tail_smaller x es : nul x = true -> hrank (ESeq es) <= hrank (ESeq (x :: es)) /\ esize (ESeq es) < esize (ESeq (x :: es)).
Proof.
  intros En. unfold hrank. rewrite heads_seq_cons, hr_app, En.
  pose proof (esize_pos x) as E. cbn [esize fold_right]. lia.
Qed.

Lemma below_alt_in x es p : In x es -> below x p (EAlt es) p.
Proof.
  intros Hin. right. split; [reflexivity|right]. unfold hrank. cbn [WF.heads esize].
  pose proof (hr_flat_map heads x es Hin). pose proof (sum_in esize x es Hin). lia.
Qed.

Lemma below_alt_tail x es p : below (EAlt es) p (EAlt (x :: es)) p.
Proof.
  right. split; [reflexivity|right]. unfold hrank. cbn [WF.heads flat_map]. rewrite hr_app.
  pose proof (esize_pos x) as E. cbn [esize fold_right]. lia.
Qed.

Lemma below_default cs d p : below d p (ESwitch cs d) p.
Proof. right. split; [reflexivity|right]. unfold hrank. cbn [WF.heads esize]. rewrite hr_app. lia. Qed.

Lemma below_case cs d keys e1 p : In (keys, e1) cs -> below e1 p (ESwitch cs d) p.
Proof.
  intros Hin. right. split; [reflexivity|right]. unfold hrank. cbn [WF.heads esize]. rewrite hr_app.
  pose proof (hr_flat_map (fun c0 : list rune * expr => heads (snd c0)) _ _ Hin) as H.
  pose proof (sum_in (fun c0 : list rune * expr => esize (snd c0)) _ _ Hin) as H0. cbn [snd] in H, H0. lia.
Qed.
End Rank.

Section Total.
Variable g : grammar.
Variable ptx : nat.
Variable buf : list rune.
Variable penv : nat -> nat -> bool.
Variable tab : list bool.
Variable rank : list nat.
Hypothesis Hwf : wf_b g tab rank = true.

Notation ev := (peg_ev g ptx buf penv).
Notation nul := (nul tab).
Notation heads := (heads tab).
Notation local_ok := (local_ok g tab).
Notation hrank := (hrank tab rank).
Notation below := (below tab rank).
Notation yields := (yields g ptx buf penv).
Notation ev_le := (ev_le g ptx buf penv).

Lemma wf_rule r rb : nth_error g r = Some rb -> rule_wf g tab rank r rb = true.
Proof.
  unfold wf_b in Hwf.
  assert (G : forall l i, (fix go (l : list rbody) (i : nat) : bool :=
                match l with [] => true | rb :: l' => rule_wf g tab rank i rb && go l' (S i) end) l i = true ->
              forall k rb, nth_error l k = Some rb -> rule_wf g tab rank (i + k) rb = true).
  { induction l as [|x l IH]; intros i H k rb0 Hk; [destruct k; discriminate|].
    apply andb_true_iff in H as [H1 H2]. destruct k as [|k]; cbn in Hk.
    - inv Hk. rewrite Nat.add_0_r. exact H1.
    - rewrite <- Nat.add_succ_comm. eapply IH; eauto. }
  intros H. exact (G g 0 Hwf r rb H).
Qed.

Lemma consumes n : forall e p p' f evs, p <= length buf -> local_ok e = true -> nul e = false ->
  ev n e p = Some (Succ p' f, evs) -> p < p'.
Proof.
  induction n as [|n IH]; intros e p p' f evs Hp Hl Hn H; [discriminate|].
  destruct e; cbn [WF.nul] in Hn; try discriminate; cbn [WF.local_ok] in Hl; cbn [peg_ev] in H.
  - unfold term in H. destruct (nth_error buf p); [|discriminate]. inv H. lia.
  - unfold term in H. destruct (nth_error buf p) as [c'|]; [destruct (Z.eqb c c')|]; inv H. lia.
  - unfold term in H. destruct (nth_error buf p) as [c'|]; [destruct (in_range lo hi c')|]; inv H. lia.
  - (* EName *)
    destruct (nth_error g r) as [[b|k|]|] eqn:Eg; try discriminate.
    + pose proof (wf_rule _ _ Eg) as W. cbn [rule_wf] in W.
      apply andb_true_iff in W as [W _]. apply andb_true_iff in W as [Wl Wn].
      destruct (ev n b p) as [[[|p1 f1] evs1]|] eqn:E; try discriminate. inv H.
      apply (IH b p p' f1 evs1 Hp Wl); [|exact E]. destruct (nul b) eqn:Enb; [|reflexivity]. cbn in Wn. unfold tabr in *. congruence.
    + pose proof (wf_rule _ _ Eg) as W. cbn [rule_wf] in W. unfold tabr in *. congruence.
  - (* ESeq: some element is not nullable *)
    revert p f evs Hp H Hl Hn. induction es as [|x es IHes]; intros p f evs Hp H Hl Hn; cbn [forallb] in *; [discriminate|].
    apply andb_true_iff in Hl as [Hlx Hles]. cbn [seq_ev] in H.
    destruct (ev n x p) as [[[|p1 f1] evs1]|] eqn:E; try discriminate.
    destruct (seq_ev (ev n) es p1) as [[[|p2 f2] evs2]|] eqn:E2; try discriminate. inv H.
    destruct (ev_le _ _ _ _ _ _ Hp E) as [L1 B1].
    destruct (nul x) eqn:Enx.
    + cbn [andb] in Hn. exact (Nat.le_lt_trans _ _ _ L1 (IHes p1 f2 evs2 B1 E2 Hles Hn)).
    + destruct (ev_le (S n) (ESeq es) _ _ _ _ B1 E2) as [L2 _]. exact (Nat.lt_le_trans _ _ _ (IH _ _ _ _ _ Hp Hlx Enx E) L2).
  - (* EAlt: every alternative is non-nullable *)
    apply alt_ev_succ in H as (x & evs1 & Hx & E). rewrite forallb_forall in Hl.
    apply (IH x p p' f evs1 Hp (Hl x Hx)); [|exact E].
    exact (proj1 (existsb_exists_false _ _) Hn x Hx).
  - (* EPlus *)
    apply andb_true_iff in Hl as [Hne Hle].
    destruct (ev n e p) as [[[|p1 f1] evs1]|] eqn:E; try discriminate.
    destruct (ev n (EStar e) p1) as [[[|p2 f2] evs2]|] eqn:E2; try discriminate. inv H.
    destruct (ev_le _ _ _ _ _ _ Hp E) as [L1 B1]. destruct (ev_le _ _ _ _ _ _ B1 E2) as [L2 B2].
    exact (Nat.lt_le_trans _ _ _ (IH _ _ _ _ _ Hp Hle Hn E) L2).
  - (* EPush *)
    destruct (ev n e p) as [[[|p1 f1] evs1]|] eqn:E; try discriminate. inv H. eapply IH; eauto.
  - (* ESwitch *)
    apply andb_true_iff in Hl as [Hlc Hld]. apply orb_false_iff in Hn as [Hnc Hnd].
    destruct (nth_error buf p) as [c|]; [|eapply IH; eauto].
    destruct (find_case cs c) as [e1|] eqn:Ef; [|eapply IH; eauto].
    apply find_case_in in Ef as (keys & Hin). rewrite forallb_forall in Hlc.
    apply (IH e1 p p' f evs Hp (Hlc _ Hin)); [|exact H].
    exact (proj1 (existsb_exists_false _ _) Hnc _ Hin).
Qed.

Lemma body_rank r b : nth_error g r = Some (RBody b) -> hrank b < hrank (EName r).
Proof.
  intros Eg. pose proof (wf_rule _ _ Eg) as W. cbn [rule_wf] in W. apply andb_true_iff in W as [_ Wh].
  apply hr_lt in Wh. unfold Total.hrank. cbn [WF.heads hr fold_right]. clear -Wh. lia.
Qed.

Lemma yields_le e p p' f : p <= length buf -> yields e p (Succ p' f) -> p <= p' /\ p' <= length buf.
Proof. intros Hp (n & evs & H). exact (ev_le _ _ _ _ _ _ Hp H). Qed.

Lemma yields_consumes e p p' f : p <= length buf -> local_ok e = true -> nul e = false -> yields e p (Succ p' f) -> p < p'.
Proof. intros Hp Hl Hn (n & evs & H). exact (consumes _ _ _ _ _ _ Hp Hl Hn H). Qed.

(** Ford's argument: what runs after [A] has succeeded starts further right when [A] cannot
    succeed without consuming, and otherwise must be smaller *)
Lemma below_after A x e p p1 f : p <= length buf -> local_ok A = true -> yields A p (Succ p1 f) ->
  (nul A = true -> hrank x <= hrank e /\ esize x < esize e) -> below x p1 e p.
Proof.
  intros Hp Hl Hy Hn. destruct (yields_le _ _ _ _ Hp Hy) as [L _]. destruct (nul A) eqn:En.
  - destruct (Nat.eq_dec p1 p) as [->|Hne]; [right; split; [reflexivity|right; apply Hn; reflexivity]|left; clear -L Hne; lia].
  - left. exact (yields_consumes _ _ _ _ Hp Hl En Hy).
Qed.

(** both parts of a sequence or repetition are evaluated before it returns, the second wherever the
    first has stopped: what the induction below supposes of them *)
Lemma seqlike_parts (R : expr -> nat -> Prop) E A B r0 p : seqlike E A B r0 -> p <= length buf -> local_ok E = true ->
  (forall x q, q <= length buf -> local_ok x = true -> below x q E p -> R x q) ->
  R A p /\ forall p1 f, yields A p (Succ p1 f) -> R B p1.
Proof.
  intros S Hp Hl IH.
  assert (O : local_ok A = true /\ local_ok B = true /\ below A p E p /\
              (nul A = true -> hrank B <= hrank E /\ esize B < esize E)).
  { destruct S as [x es|e|e]; pose proof Hl as Hl'; cbn [WF.local_ok forallb] in Hl; apply andb_true_iff in Hl as [H1 H2].
    - split; [exact H1|]. split; [exact H2|]. split; [apply below_seq_head|apply seq_tail_smaller].
    - apply negb_true_iff in H1. split; [exact H2|]. split; [exact Hl'|]. split; [apply below_operand|congruence].
    - apply negb_true_iff in H1. split; [exact H2|]. split; [exact Hl'|]. split; [apply below_operand|congruence]. }
  destruct O as (LA & LB & BA & BB). split; [exact (IH A p Hp LA BA)|]. intros p1 f Hy.
  exact (IH B p1 (proj2 (yields_le _ _ _ _ Hp Hy)) LB (below_after A _ _ _ _ f Hp LA Hy BB)).
Qed.

(** induction along the order of evaluation: remaining input, then rank of the head rules, then size *)
Lemma head_rank_ind (R : expr -> nat -> Prop) :
  (forall e p, p <= length buf -> local_ok e = true ->
     (forall x q, q <= length buf -> local_ok x = true -> below x q e p -> R x q) -> R e p) ->
  forall e p, p <= length buf -> local_ok e = true -> R e p.
Proof.
  intros Step.
  assert (G : forall k h s e p, p <= length buf -> length buf - p <= k -> hrank e <= h -> esize e <= s -> local_ok e = true -> R e p).
  { induction k as [k IHk] using lt_wf_ind. induction h as [h IHh] using lt_wf_ind.
    induction s as [|s IHs]; intros e p Hp Hk Hh Hs Hl; [pose proof (esize_pos e) as E; clear -Hs E; lia|].
    apply Step; [exact Hp|exact Hl|]. intros x q Hq Hlx [Hlt|[-> [Hr|[Hr Hsz]]]].
    - apply (IHk (length buf - q)) with (h := hrank x) (s := esize x); auto; clear -Hk Hlt Hq; lia.
    - apply (IHh (hrank x)) with (s := esize x); auto; clear -Hh Hr; lia.
    - apply IHs; auto; clear -Hh Hs Hr Hsz; lia. }
  intros e p Hp Hl. exact (G _ _ _ e p Hp (le_n _) (le_n _) (le_n _) Hl).
Qed.

Definition has_result (e : expr) (p : nat) : Prop := exists n r, ev n e p = Some r.

Lemma has_result_iff e p : has_result e p <-> exists r, yields e p r.
Proof. split; [intros (n & [r evs] & H); exists r, n, evs; exact H|intros (r & n & evs & H); exists n, (r, evs); exact H]. Qed.

Lemma unary_total K h e p : unary ptx K h -> has_result e p -> has_result (K e) p.
Proof.
  intros U H. apply has_result_iff in H as (r1 & H). apply has_result_iff.
  exists (h p r1). apply (unary_yields _ _ _ _ _ _ U). exists r1. split; [exact H|reflexivity].
Qed.

Lemma then_total E A B r0 p : seqlike E A B r0 ->
  has_result A p /\ (forall p1 f, yields A p (Succ p1 f) -> has_result B p1) -> has_result E p.
Proof.
  intros S [HA HB]. apply (seqlike_shape g ptx buf penv) in S. apply has_result_iff in HA as ([|p1 f1] & HA); apply has_result_iff.
  - exists (r0 p). apply S. left. split; [exact HA|reflexivity].
  - destruct (proj1 (has_result_iff _ _) (HB _ _ HA)) as (r2 & H2).
    exists (join f1 r2). apply S. right. exists p1, f1, r2. split; [exact HA|split; [exact H2|reflexivity]].
Qed.

Lemma alt_total x es p : has_result x p -> has_result (EAlt es) p -> has_result (EAlt (x :: es)) p.
Proof.
  intros Hx Hes. apply has_result_iff in Hx as (r1 & Hx). apply has_result_iff in Hes as (r2 & Hes). apply has_result_iff.
  destruct r1 as [|p1 f1].
  - exists r2. apply alt_cons_yields. right. split; assumption.
  - exists (Succ p1 f1). apply alt_cons_yields. left. exists p1, f1. split; [reflexivity|exact Hx].
Qed.

Theorem total_at e p : p <= length buf -> local_ok e = true -> has_result e p.
Proof.
  revert e p. apply head_rank_ind. intros e p Hp Hl IH.
  destruct e; cbn [WF.local_ok] in Hl; try (exists 1; eexists; reflexivity).
  - (* EName *)
    apply has_result_iff. destruct (nth_error g r) as [[b|a|]|] eqn:Eg; try discriminate.
    + pose proof (wf_rule _ _ Eg) as W. cbn [rule_wf] in W.
      apply andb_true_iff in W as [W _]. apply andb_true_iff in W as [Wl _].
      destruct (proj1 (has_result_iff b p) (IH b p Hp Wl (below_rank _ _ _ _ _ (body_rank _ _ Eg)))) as (r1 & H1).
      eexists. apply name_yields. rewrite Eg. exists r1. split; [exact H1|reflexivity].
    + eexists. apply name_yields. rewrite Eg. reflexivity.
  - (* ESeq *)
    destruct es as [|x es]; [exists 1; eexists; reflexivity|].
    exact (then_total _ _ _ _ _ (sl_seq x es) (seqlike_parts _ _ _ _ _ _ (sl_seq x es) Hp Hl IH)).
  - (* EAlt *)
    destruct es as [|x es]; [exists 1; eexists; reflexivity|].
    cbn [forallb] in Hl. apply andb_true_iff in Hl as [Hlx Hles].
    apply alt_total; apply IH; auto; [apply below_alt_in; left; reflexivity|apply below_alt_tail].
  - apply (unary_total _ _ _ _ (u_and ptx)), IH; auto. apply (below_unary _ _ _ _ _ _ _ (u_and ptx)).
  - apply (unary_total _ _ _ _ (u_not ptx)), IH; auto. apply (below_unary _ _ _ _ _ _ _ (u_not ptx)).
  - apply (unary_total _ _ _ _ (u_query ptx)), IH; auto. apply (below_unary _ _ _ _ _ _ _ (u_query ptx)).
  - exact (then_total _ _ _ _ _ (sl_star e) (seqlike_parts _ _ _ _ _ _ (sl_star e) Hp Hl IH)).
  - exact (then_total _ _ _ _ _ (sl_plus e) (seqlike_parts _ _ _ _ _ _ (sl_plus e) Hp Hl IH)).
  - apply (unary_total _ _ _ _ (u_push ptx)), IH; auto. apply (below_unary _ _ _ _ _ _ _ (u_push ptx)).
  - (* ESwitch *)
    apply andb_true_iff in Hl as [Hlc Hld]. rewrite forallb_forall in Hlc.
    assert (Hb : local_ok (branch buf cs e p) = true /\ below (branch buf cs e p) p (ESwitch cs e) p).
    { unfold branch. destruct (nth_error buf p) as [c|]; [destruct (find_case cs c) as [e1|] eqn:Ef|]; try (split; [exact Hld|apply below_default]).
      apply find_case_in in Ef as (keys & Hin). split; [exact (Hlc _ Hin)|exact (below_case _ _ _ _ _ _ _ Hin)]. }
    destruct (proj1 (has_result_iff _ _) (IH _ p Hp (proj1 Hb) (proj2 Hb))) as (r & Hr).
    apply has_result_iff. exists r. apply switch_yields. exact Hr.
Qed.

Definition P (k h s : nat) : Prop :=
  forall e p, p <= length buf -> length buf - p <= k -> hrank e <= h -> esize e <= s -> local_ok e = true -> has_result e p.

Theorem total : forall k h s, P k h s.
Proof. intros k h s e p Hp _ _ _. exact (total_at e p Hp). Qed.

End Total.
