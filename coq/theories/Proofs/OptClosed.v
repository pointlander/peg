(** The -switch pass keeps the rule references of a tree: it introduces no name ([names_opt]) and empties no slot
    ([optimize_slot]), so a grammar whose references are all defined stays so ([optimize_closed_names]), and with
    [optimize_alt2] the side condition of the code-level theorems ([deep_table_b]) holds of every optimised tree
    (Proofs/CountInline.v).  With that side condition discharged the statements of the generated file run as the machine
    does ([code_runs]) and, for a grammar with a well-formedness certificate, terminate ([generated_code_terminates]). *)
From PegV Require Import Base.Tac Spec.Syntax Spec.Peg Spec.WF Model.Machine Model.Analyses Model.Optimize Model.Gen Model.Emit Model.SEmit Model.Exec
  Proofs.OptSound Proofs.OptSwok Proofs.Top Proofs.SEmitFile Proofs.EmitUse Proofs.CountInline Proofs.ExecDet.
Local Open Scope nat_scope.

Lemma names_opt T : forall e r, In r (names_of (opt T e)) -> In r (names_of e).
Proof.
  induction e using expr_ind2; intros r0 Hin; try (cbn [opt names_of] in *; auto; fail).
  - (* ESeq *) cbn [opt names_of] in *. apply in_flat_map in Hin as (y & Hy & Hr). apply in_map_iff in Hy as (x & <- & Hx).
    rewrite Forall_forall in H. apply in_flat_map. exists x. split; [exact Hx|apply H; auto].
  - (* EAlt *)
    rewrite Forall_forall in H.
    assert (Hpiece : forall e', (exists x, In x es /\ e' = opt T x) -> In r0 (names_of e') -> In r0 (names_of (EAlt es))).
    { intros e' (x & Hx & ->) Hr. cbn [names_of]. apply in_flat_map. exists x. split; [exact Hx|apply H; auto]. }
    revert Hin. apply opt_alt_shape.
    + cbn [names_of]. intros K. apply in_flat_map in K as (y & Hy & Hr). apply in_map_iff in Hy as (x & <- & Hx). eauto.
    + intros os cs d _ Hos Hcs Hd.
      assert (Hsw : In r0 (names_of (ESwitch cs d)) -> In r0 (names_of (EAlt es))).
      { cbn [names_of]. intros K. apply in_app_or in K as [K|K]; [|exact (Hpiece d Hd K)].
        apply in_flat_map in K as (kc & Hc & Hr). destruct (Hcs kc Hc) as (x & Hx & -> & _). exact (Hpiece _ (ex_intro _ x (conj Hx eq_refl)) Hr). }
      destruct os as [|o1 os]; [exact Hsw|]. cbn [names_of]. rewrite flat_map_app. intros K. apply in_app_or in K as [K|K].
      * apply in_flat_map in K as (y & Hy & Hr). exact (Hpiece y (Hos y Hy) Hr).
      * cbn [flat_map] in K. rewrite app_nil_r in K. exact (Hsw K).
Qed.

Lemma optimize_slot g r rb : nth_error g r = Some rb -> rb <> RNil -> exists rb', nth_error (optimize g) r = Some rb' /\ rb' <> RNil.
Proof.
  intros H N. destruct (fs_table g) as [T [|]] eqn:Et.
  - rewrite (optimize_is_g' g T Et), g'_nth, H. destruct rb; eexists; (split; [reflexivity|congruence]).
  - unfold optimize. rewrite Et. eauto.
Qed.

Theorem optimize_closed_names g : closed_names g -> closed_names (optimize g).
Proof.
  intros Hc r b' Hb' r' Hr'. destruct (optimize_nth g r b' Hb') as (b & Hb & [->|(T & _ & ->)]).
  - destruct (Hc r b Hb r' Hr') as (rb & H & N). exact (optimize_slot g r' rb H N).
  - destruct (Hc r b Hb r' (names_opt T b r' Hr')) as (rb & H & N). exact (optimize_slot g r' rb H N).
Qed.

Theorem deep_table_optimize g inline : grammar_alt2 g -> closed_names g -> deep_table_b (optimize g) inline = true.
Proof. intros Ha Hc. apply deep_table_all; [apply optimize_alt2; exact Ha|apply optimize_closed_names; exact Hc]. Qed.

(** [generated_code_runs] (Proofs/SEmitFile.v) with the emitter's side condition discharged (Proofs/CountInline.v) *)
Lemma code_runs g ptx buf penv :
  good_grammar g -> good_buf buf -> good_switches g -> grammar_alt2 g -> closed_names g ->
  forall memo inline n r st0 rr, slot_ok g inline r -> reached (count_rules g) r = true -> peg_parse g ptx buf penv n r = Some rr ->
  exists b st', machine g ptx buf penv memo inline n r st0 = Some (Ret b st') /\
    xcall buf penv (mk_opts true memo inline g) (gen_fn g ptx inline) r (reset st0) (Ret b st') /\
    forall res, xcall buf penv (mk_opts true memo inline g) (gen_fn g ptx inline) r (reset st0) res -> res = Ret b st'.
Proof.
  intros Hg Hb Hs Ha Hc memo inline [|n] r st0 rr Hsl Hr H; [discriminate|].
  exact (generated_code_runs g ptx buf penv Hg Hb Hs memo inline n r st0 rr (deep_table_all g inline Ha Hc) Hsl Hr H).
Qed.

(** For a grammar with a well-formedness certificate the entry function of the generated file HAS an execution, on every
    input and from every earlier parser state; that execution returns (it does not crash) and it is the only one.  The
    reference semantics is total on such grammars (Ford, Proofs/Total.v), the statements implement it
    ([code_runs]) and the goto semantics is deterministic (Proofs/ExecDet.v). *)
Theorem generated_code_terminates g tab rank :
  wf_b g tab rank = true -> good_grammar g -> good_switches g -> grammar_alt2 g -> closed_names g ->
  forall ptx buf penv, good_buf buf ->
  forall memo inline r rb st0,
    nth_error g r = Some rb -> rb <> RNil -> slot_ok g inline r -> reached (count_rules g) r = true ->
    exists b st', xcall buf penv (mk_opts true memo inline g) (gen_fn g ptx inline) r (reset st0) (Ret b st') /\
      forall res, xcall buf penv (mk_opts true memo inline g) (gen_fn g ptx inline) r (reset st0) res -> res = Ret b st'.
Proof.
  intros Hwf Hg Hs Ha Hc ptx buf penv Hb memo inline r rb st0 Hr Hn Hsl Hre.
  destruct (c01_total g ptx buf penv tab rank r rb Hwf Hr Hn) as (n & rr & H).
  destruct (code_runs g ptx buf penv Hg Hb Hs Ha Hc memo inline n r st0 rr Hsl Hre H) as (b & st' & _ & Hx & Hu). eauto.
Qed.
Print Assumptions generated_code_terminates.

