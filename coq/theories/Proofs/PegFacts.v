(** Facts about the reference semantics (Spec/Peg.v): fuel monotonicity, hence determinism across fuel
    ([peg_ev_mono], [peg_ev_det]); the result of a sequence after a successful first part ([seq_out]); the case a
    switch selects has the character among its keys, and none is selected at the end of input
    ([find_case_keys_spec], [find_case_keys_end]); and the fold that computes maxToken ([upd_max],
    [first_furthest]): its end only grows, and events that reach no further than the token held leave it as it
    is ([absorbed], [absorbed_fold]). *)
From PegV Require Import Base.Tac Spec.Syntax Spec.Peg Spec.WF.

(** every step of the semantics has the form "no result of the part: no result; else go on with it",
    which is monotone in the part and in the continuation *)
Lemma opt_bind_mono {A B} (a a' : option A) (k k' : A -> option B) x :
  (forall y, a = Some y -> a' = Some y) -> (forall y z, k y = Some z -> k' y = Some z) ->
  match a with Some y => k y | None => None end = Some x -> match a' with Some y => k' y | None => None end = Some x.
Proof. intros Ha Hk. destruct a as [y|]; [|discriminate]. rewrite (Ha y eq_refl). apply Hk. Qed.

Section Facts.
Variable g : grammar.
Variable ptx : nat.
Variable buf : list rune.
Variable penv : nat -> nat -> bool.

Notation ev := (peg_ev g ptx buf penv).

Lemma seq_ev_mono (f f' : expr -> nat -> option out) :
  (forall e p x, f e p = Some x -> f' e p = Some x) ->
  forall es p x, seq_ev f es p = Some x -> seq_ev f' es p = Some x.
Proof.
  intros Hf es; induction es as [|e es IH]; intros p x; cbn [seq_ev]; [auto|].
  apply opt_bind_mono; [apply Hf|]. intros [[|p1 f1] evs1] z; [auto|]. apply opt_bind_mono; auto.
Qed.

Lemma alt_ev_mono (f f' : expr -> nat -> option out) :
  (forall e p x, f e p = Some x -> f' e p = Some x) ->
  forall es p x, alt_ev f es p = Some x -> alt_ev f' es p = Some x.
Proof.
  intros Hf es; induction es as [|e es IH]; intros p x; cbn [alt_ev]; [auto|].
  apply opt_bind_mono; [apply Hf|]. intros [[|p1 f1] evs1] z; [|auto]. destruct es as [|e2 es]; [auto|].
  apply opt_bind_mono; auto.
Qed.

Lemma peg_ev_S n : forall e p x, ev n e p = Some x -> ev (S n) e p = Some x.
Proof.
  induction n as [|n IH]; intros e p x H; [discriminate|].
  destruct e; cbn [peg_ev] in H; revert H; remember (S n) as m eqn:Hm; cbn [peg_ev]; auto.
  - destruct (nth_error g r) as [[b|k|]|]; auto. apply opt_bind_mono; auto.
  - apply seq_ev_mono, IH.
  - apply alt_ev_mono, IH.
  - apply opt_bind_mono; auto.
  - apply opt_bind_mono; auto.
  - apply opt_bind_mono; auto.
  - apply opt_bind_mono; [apply IH|]. intros [[|p1 f1] evs1] z; [auto|]. apply opt_bind_mono; auto.
  - apply opt_bind_mono; [apply IH|]. intros [[|p1 f1] evs1] z; [auto|]. apply opt_bind_mono; auto.
  - apply opt_bind_mono; auto.
  - destruct (nth_error buf p) as [c|]; [destruct (find_case cs c)|]; apply IH.
Qed.

Lemma peg_ev_mono n m e p x : n <= m -> ev n e p = Some x -> ev m e p = Some x.
Proof. induction 1; auto. intros. apply peg_ev_S. auto. Qed.

Lemma peg_ev_det n m e p x y : ev n e p = Some x -> ev m e p = Some y -> x = y.
Proof.
  intros Hx Hy. destruct (Nat.le_ge_cases n m) as [L|L].
  - pose proof (peg_ev_mono _ _ _ _ _ L Hx). congruence.
  - pose proof (peg_ev_mono _ _ _ _ _ L Hy). congruence.
Qed.

End Facts.

(** a successful first part (forest [f1], events [evs1]) followed by [r2]: the tail of a sequence,
    of a star and of a plus *)
Definition seq_out (f1 : list dt) (evs1 : list tok) (r2 : out) : out :=
  (match fst r2 with Fail => Fail | Succ p2 f2 => Succ p2 (f1 ++ f2) end, evs1 ++ snd r2).

Lemma seq_out_eq f1 evs1 (o2 : option out) :
  match o2 with
  | None => None
  | Some (Fail, evs2) => Some (Fail, evs1 ++ evs2)
  | Some (Succ p2 f2, evs2) => Some (Succ p2 (f1 ++ f2), evs1 ++ evs2)
  end = option_map (seq_out f1 evs1) o2.
Proof. destruct o2 as [[[|p2 f2] evs2]|]; reflexivity. Qed.

Lemma find_case_keys_spec cs c keys e1 :
  find_case_keys cs c = Some (keys, e1) -> In (keys, e1) cs /\ In c keys.
Proof.
  induction cs as [|[k x] cs IH]; cbn [find_case_keys]; [discriminate|].
  destruct (existsb (Z.eqb c) k) eqn:E.
  - intros H; inv H. split; [left; reflexivity|]. apply existsb_exists in E as (y & Hy & Ey). apply Z.eqb_eq in Ey. subst. exact Hy.
  - intros H. destruct (IH H). split; [right|]; auto.
Qed.

Lemma find_case_keys_end cs :
  forallb (fun c => forallb (fun k => Z.ltb k endSymbol) (fst c) && expr_ok (snd c)) cs = true ->
  find_case_keys cs endSymbol = None.
Proof.
  induction cs as [|[k x] cs IH]; cbn [find_case_keys forallb]; intros H; [reflexivity|].
  apply andb_true_iff in H as [H1 H2]. cbn [fst snd] in H1. apply andb_true_iff in H1 as [Hk _].
  destruct (existsb (Z.eqb endSymbol) k) eqn:E; [|auto].
  apply existsb_exists in E as (y & Hy & Ey). apply Z.eqb_eq in Ey. subst y.
  rewrite forallb_forall in Hk. specialize (Hk _ Hy). apply Z.ltb_lt in Hk. lia.
Qed.

Lemma upd_max_end m t : tk_end m <= tk_end (upd_max m t).
Proof. unfold upd_max. destruct (negb (tk_begin t =? tk_end t) && (tk_end m <? tk_end t)) eqn:E; [|lia]. apply andb_true_iff in E as [_ E]. apply Nat.ltb_lt in E. lia. Qed.

Lemma fold_upd_end evs : forall m, tk_end m <= tk_end (fold_left upd_max evs m).
Proof. induction evs as [|t evs IH]; intros m; cbn; [lia|]. pose proof (upd_max_end m t). pose proof (IH (upd_max m t)). lia. Qed.

Definition absorbed (evs : list tok) (m : tok) : Prop :=
  forall t, In t evs -> tk_begin t <> tk_end t -> tk_end t <= tk_end m.

Lemma fold_upd_absorbs evs : forall m, absorbed evs (fold_left upd_max evs m).
Proof.
  induction evs as [|t evs IH]; intros m u Hu Hne; cbn in *; [contradiction|].
  destruct Hu as [->|Hu]; [|apply IH; auto].
  pose proof (fold_upd_end evs (upd_max m u)). unfold upd_max in *.
  destruct (tk_begin u =? tk_end u) eqn:E1; [apply Nat.eqb_eq in E1; contradiction|]. cbn [negb andb] in *.
  destruct (tk_end m <? tk_end u) eqn:E2; [lia|]. apply Nat.ltb_ge in E2. lia.
Qed.

Lemma absorbed_mono evs m m' : absorbed evs m -> tk_end m <= tk_end m' -> absorbed evs m'.
Proof. intros H L t Ht Hne. specialize (H t Ht Hne). lia. Qed.

Lemma absorbed_fold evs : forall m, absorbed evs m -> fold_left upd_max evs m = m.
Proof.
  induction evs as [|t evs IH]; intros m H; cbn; [reflexivity|].
  assert (upd_max m t = m) as ->.
  { unfold upd_max. destruct (tk_begin t =? tk_end t) eqn:E1; [reflexivity|]. cbn [negb andb].
    apply Nat.eqb_neq in E1. specialize (H t (or_introl eq_refl) E1).
    destruct (tk_end m <? tk_end t) eqn:E2; [apply Nat.ltb_lt in E2; lia | reflexivity]. }
  apply IH. intros u Hu. apply H. right; auto.
Qed.
