(** Go rejects an identifier that is not declared.  Every positionN / tokenIndexN the emitted code reads - in a
    restore, a memoize call, an add or a capture - was declared earlier in the same statement list or in an
    enclosing one ("positionN, tokenIndexN := position, tokenIndex" declares both, "positionN := position" the first). *)
From PegV Require Import Base.Tac Model.Emit Proofs.EmitWF.
Local Open Scope nat_scope.

Definition declp (y : code) : list nat := match y with KSave n | KSaveP n => [n] | _ => [] end.
Definition declt (y : code) : list nat := match y with KSave n => [n] | _ => [] end.
Definition mem (n : nat) (l : list nat) : bool := existsb (Nat.eqb n) l.

Definition vok_list (f : list nat -> list nat -> code -> bool) : list nat -> list nat -> list code -> bool :=
  fix go (sp st : list nat) (l : list code) : bool :=
    match l with
    | [] => true
    | y :: l' => f sp st y && go (declp y ++ sp) (declt y ++ st) l'
    end.
(** [sp] / [st]: the N whose positionN / tokenIndexN is in scope *)
Fixpoint vok1 (sp st : list nat) (x : code) : bool :=
  match x with
  | KRestore n | KMemo n => mem n sp && mem n st
  | KUseP n => mem n sp
  | KBlock b => vok_list (fun sp st y => vok1 sp st y) sp st b
  | KSwitch cs d => forallb (fun k => vok_list (fun sp st y => vok1 sp st y) sp st k) cs && vok_list (fun sp st y => vok1 sp st y) sp st d
  | _ => true
  end.
Definition vok (sp st : list nat) (c : list code) : bool := vok_list (fun sp st y => vok1 sp st y) sp st c.

Lemma mem_here n l : mem n (n :: l) = true.
Proof. unfold mem. cbn. rewrite Nat.eqb_refl. reflexivity. Qed.
Lemma mem_cons n m l : mem n l = true -> mem n (m :: l) = true.
Proof. unfold mem. cbn. intros ->. apply orb_true_r. Qed.

(** a fragment without declarations at its top level: the scope is the same all along *)
Lemma vok_app_nodecl sp st a : forall b, nodecl a = true -> vok sp st (a ++ b) = vok sp st a && vok sp st b.
Proof.
  unfold vok, nodecl. induction a as [|y a IH]; intros b Hn; [reflexivity|]. cbn [app vok_list forallb] in *.
  apply andb_true_iff in Hn as [Hy Hn].
  assert (E1 : declp y = []) by (destruct y; try reflexivity; discriminate).
  assert (E2 : declt y = []) by (destruct y; try reflexivity; discriminate).
  rewrite E1, E2. cbn [app]. rewrite (IH b Hn), andb_assoc. reflexivity.
Qed.

(** [closed_if P Q c]: [c] declares nothing at its top level, and is in order in every scope in which [P] holds
    of the N whose positionN is visible and [Q] of those whose tokenIndexN is *)
Definition closed_if (P Q : list nat -> Prop) (c : list code) : Prop :=
  nodecl c = true /\ forall sp st, P sp -> Q st -> vok sp st c = true.
Definition any_vars (l : list nat) : Prop := True.
Definition has_var (n : nat) (l : list nat) : Prop := mem n l = true.
Definition closed : list code -> Prop := closed_if any_vars any_vars.
(** ... which is [closed_if (has_var n) (has_var n)] *)
Definition closed_with (n : nat) (c : list code) : Prop :=
  nodecl c = true /\ forall sp st, mem n sp = true -> mem n st = true -> vok sp st c = true.

Lemma closed_nil : closed [].  Proof. split; [reflexivity|]. intros; reflexivity. Qed.
Lemma closed_if_app P Q a b : closed_if P Q a -> closed_if P Q b -> closed_if P Q (a ++ b).
Proof.
  intros [A1 A2] [B1 B2]. split; [rewrite nodecl_app, A1, B1; reflexivity|]. intros sp st Hp Ht. rewrite vok_app_nodecl by exact A1. rewrite A2, B2; auto.
Qed.
Lemma closed_weak P Q c : closed c -> closed_if P Q c.
Proof. intros [A B]. split; [exact A|]. intros; apply B; exact I. Qed.
Lemma closed_atoms c : forallb (fun x => match x with KRestore _ | KMemo _ | KUseP _ | KSave _ | KSaveP _ | KBlock _ | KSwitch _ _ => false | _ => true end) c = true -> closed c.
Proof.
  intros H. split.
  - unfold nodecl. apply forallb_forall. intros x Hx. rewrite forallb_forall in H. specialize (H x Hx). destruct x; try reflexivity; discriminate.
  - intros sp st _ _. unfold vok. revert sp st. induction c as [|y c IH]; intros sp st; [reflexivity|]. cbn [forallb vok_list] in *.
    apply andb_true_iff in H as [Hy H]. assert (E : vok1 sp st y = true) by (destruct y; try reflexivity; discriminate).
    assert (E1 : declp y = []) by (destruct y; try reflexivity; discriminate).
    assert (E2 : declt y = []) by (destruct y; try reflexivity; discriminate).
    rewrite E, E1, E2. cbn [app andb]. apply IH. exact H.
Qed.
Lemma closed_with_restore n : closed_with n [KRestore n].
Proof. split; [reflexivity|]. intros sp st Hp Ht. unfold vok. cbn. rewrite Hp, Ht. reflexivity. Qed.
Lemma closed_with_memo n : closed_with n [KMemo n].
Proof. split; [reflexivity|]. intros sp st Hp Ht. unfold vok. cbn. rewrite Hp, Ht. reflexivity. Qed.

Lemma closed_block_save n body : closed_with n body -> closed [KBlock (KSave n :: body)].
Proof.
  intros [B1 B2]. split; [reflexivity|]. intros sp st _ _. unfold vok. cbn [vok_list vok1 declp declt app]. rewrite andb_true_r. cbn [andb].
  apply (B2 (n :: sp) (n :: st)); apply mem_here.
Qed.
Lemma closed_block_savep n body : closed_if (has_var n) any_vars body -> closed [KBlock (KSaveP n :: body)].
Proof.
  intros [B1 B2]. split; [reflexivity|]. intros sp st _ _. unfold vok. cbn [vok_list vok1 declp declt app]. rewrite andb_true_r. cbn [andb].
  apply (B2 (n :: sp) st); [apply mem_here|exact I].
Qed.

Lemma closed_use n : closed_if (has_var n) any_vars [KUseP n].
Proof. split; [reflexivity|]. intros sp st Hp _. unfold vok. cbn. rewrite Hp. reflexivity. Qed.

Lemma closed_switch cls d : (forall sp st, forallb (fun k => vok sp st k) cls = true) -> closed d -> closed [KBlock [KSwitch cls d]].
Proof.
  intros Hc [D1 D2]. split; [reflexivity|]. intros sp st _ _. unfold vok. cbn [vok_list vok1 declp declt app]. rewrite !andb_true_r.
  fold (vok sp st d). rewrite D2, andb_true_r by exact I. exact (Hc sp st).
Qed.

Section Scope.
Variable ast : bool.
Variable used : nat -> bool.
Notation lbl_if := (lbl_if used).

Lemma closed_lbl_if n : closed (lbl_if n).
Proof. unfold Emit.lbl_if. destruct (used n); apply closed_atoms; reflexivity. Qed.
Lemma closed_brk ll : closed (brk ll).
Proof. destruct ll; apply closed_atoms; reflexivity. Qed.
Lemma closed_usep n : closed_if (has_var n) any_vars (if ast then [KUseP n] else [KUseP n; KSt]).
Proof.
  destruct ast; [apply closed_use|].
  apply (closed_if_app _ _ [KUseP n] [KSt]); [apply closed_use|apply closed_weak, closed_atoms; reflexivity].
Qed.

(** the tail that Not, Query, Star, Plus and the alternatives of a choice share: leave for [t], come down at
    [k], restore the position saved at [s] *)
Lemma closed_leave s t k c : closed_with s c -> closed_with s ([KJmp t] ++ lbl_if k ++ [KRestore s] ++ c).
Proof.
  intros Hc. apply (closed_if_app _ _ [KJmp t]); [apply closed_weak, closed_atoms; reflexivity|].
  apply closed_if_app; [apply closed_weak, closed_lbl_if|]. apply (closed_if_app _ _ [KRestore s]); [apply closed_with_restore|exact Hc].
Qed.
Lemma closed_frame s t c : closed c -> closed [KBlock (KSave s :: c ++ [KJmp t] ++ lbl_if s ++ [KRestore s])].
Proof.
  intros Hc. apply closed_block_save, closed_if_app; [apply closed_weak, Hc|].
  apply (closed_leave s t s []), closed_weak, closed_nil.
Qed.

Theorem Em_closed :
  (forall ko l c l' ll, Em ast used ko l c l' ll -> closed c) /\
  (forall ko ok l c l', AltEm ast used ko ok l c l' -> closed_with ok c) /\
  (forall ko l cls l', CasesEm ast used ko l cls l' -> forall sp st, forallb (fun k => vok sp st k) cls = true).
Proof.
  apply Em_mutind; intros.
  - apply closed_nil.
  - apply closed_atoms; reflexivity.
  - apply closed_atoms; reflexivity.
  - apply closed_atoms; reflexivity.
  - (* pred *) split; [reflexivity|]. intros sp st. reflexivity.
  - (* seq *) apply closed_if_app; assumption.
  - (* ipush *) apply closed_block_savep, closed_if_app; [apply closed_weak; assumption|apply closed_use].
  - split; [reflexivity|]. intros sp st. reflexivity.
  - apply closed_block_savep, closed_use.
  - (* alt *) apply closed_if_app; [|apply closed_lbl_if]. apply closed_block_save. assumption.
  - (* switch *) apply closed_if_app; [|apply closed_lbl_if]. apply closed_switch; [assumption|]. apply closed_if_app; [assumption|apply closed_brk].
  - (* and *) apply closed_block_save, closed_if_app; [apply closed_weak; assumption|apply closed_with_restore].
  - (* not *) apply closed_frame. assumption.
  - (* query *) apply closed_if_app; [|apply closed_lbl_if]. apply closed_frame. assumption.
  - (* star *) apply closed_if_app; [apply closed_lbl_if|]. apply closed_frame. assumption.
  - (* plus *) apply closed_if_app; [assumption|]. apply closed_if_app; [apply closed_lbl_if|]. apply closed_frame. assumption.
  - (* push *) apply closed_block_savep, closed_if_app; [apply closed_weak; assumption|apply closed_usep].
  - apply closed_weak, closed_nil.
  - apply closed_weak. assumption.
  - (* alt_cons *) apply closed_if_app; [apply closed_weak; assumption|]. apply closed_leave. assumption.
  - reflexivity.
  - (* cases_cons *) cbn [forallb]. rewrite H2, andb_true_r. exact (proj2 (closed_if_app _ _ _ _ H0 (closed_brk ll)) sp st I I).
Qed.
End Scope.

(** a whole rule function, from the empty scope: the position saved on entry is there for memoize and for the restore *)
Theorem rule_emit_scoped g ast inl asu used n r ko : vok [] [] (fst (rule_emit g ast inl asu used n r ko)) = true.
Proof.
  unfold rule_emit. destruct (ipush_emit g (emit g ast inl asu used n) r ko false false (S ko)) as [[c l1] ll] eqn:Ec. cbn [fst].
  destruct (proj1 (Em_closed ast used) _ _ _ _ _ (ipush_Em _ _ _ _ _ _ _ _ _ _ _ _ _ _ Ec)) as [F1 F2].
  assert (K : forall tl sp st, vok sp st (c ++ tl) = vok sp st tl).
  { intros tl sp st. rewrite vok_app_nodecl by exact F1. rewrite F2 by exact I. reflexivity. }
  unfold vok in *. destruct ast, (used ko); cbn [orb app vok_list vok1 declp declt andb]; rewrite K; cbn; rewrite ?Nat.eqb_refl; reflexivity.
Qed.

Theorem emit_all_scoped g ast inline asu undef :
  Forall (fun o => match o with Some F => vok [] [] F = true | None => True end) (emit_all g ast inline asu undef).
Proof.
  apply Forall_forall. intros [F|] H; [|exact I]. apply pass_fn in H as (r & l & ->). apply rule_emit_scoped.
Qed.
