(** Soundness of the -switch rewrite (Model/Optimize.v): on a well-formed grammar with a consistent
    first-set table, the optimised tree has the same PEG semantics (result and derivation forest) as
    the original one. *)
From PegV Require Import Base.Tac Spec.Syntax Spec.Peg Spec.WF Model.SetImpl Model.Analyses Model.Optimize Proofs.SetProofs Proofs.PegInv Proofs.Total
  Proofs.FirstSound.
From Coq Require Import Permutation.

Section Reorder.
Open Scope Z_scope.
Variable c : option Z.                      (* the next character, if any *)
Definition alive (s : iset) : bool := match c with Some x => mem s x | None => false end.

(** items in the original order: (intersects a later alternative, first set, alternative) *)
Definition item := (bool * (iset * expr))%type.

(** no set of an unordered item meets the set of a later item *)
Fixpoint sep (l : list item) : Prop :=
  match l with
  | [] => True
  | (fl, (s, _)) :: l' => (fl = false -> Forall (fun j => forall x, mem s x = true -> mem (fst (snd j)) x = false) l') /\ sep l'
  end.

(** while an unordered item is live, no later item is *)
Lemma sep_dead s e l (j : item) : sep ((false, (s, e)) :: l) -> In j l -> alive s = true -> alive (fst (snd j)) = false.
Proof.
  intros [Hs _] Hin Hl. specialize (Hs eq_refl). rewrite Forall_forall in Hs. specialize (Hs _ Hin).
  unfold alive in *. destruct c as [x|]; [exact (Hs x Hl)|reflexivity].
Qed.

Lemma uniq_live (l : list item) s1 e1 s2 e2 :
  sep l -> In (false, (s1, e1)) l -> In (false, (s2, e2)) l -> alive s1 = true -> alive s2 = true -> (s1, e1) = (s2, e2).
Proof.
  induction l as [|i l IH]; intros Hsep H1 H2 L1 L2; [destruct H1|].
  destruct H1 as [->|H1], H2 as [E2|H2].
  - congruence.
  - pose proof (sep_dead _ _ _ _ Hsep H2 L1) as D. cbn [fst snd] in D. congruence.
  - subst i. pose proof (sep_dead _ _ _ _ Hsep H1 L2) as D. cbn [fst snd] in D. congruence.
  - apply IH; auto. destruct i as [fl [s r]]. exact (proj2 Hsep).
Qed.

Variable g : grammar.
Variable ptx : nat.
Variable buf : list rune.
Variable penv : nat -> nat -> bool.
Variable p : nat.
Notation yields := (yields g ptx buf penv).

Lemma alt_single e r : yields (EAlt [e]) p r <-> yields e p r.
Proof.
  split; intros H.
  - apply alt_cons_yields in H as [(p1 & f1 & -> & H)|[H H0]]; [exact H|]. apply alt_nil_yields in H0. subst r. exact H.
  - apply alt_cons_yields. destruct r as [|p1 f1]; [right; split; [exact H|apply alt_nil_yields; reflexivity]|].
    left. exists p1, f1. split; [reflexivity|exact H].
Qed.

Lemma alt_all_fail l sw r : Forall (fun e => yields e p Fail) l -> yields sw p r -> yields (EAlt (l ++ [sw])) p r.
Proof.
  induction 1 as [|e l He Hl IH]; intros H; cbn [app]; [apply alt_single; exact H|].
  apply alt_cons_yields. right. split; [exact He|apply IH; exact H].
Qed.

(** Every alternative has a result and succeeds only when its set is live.  An expression [sw] that
    behaves like the live unordered alternative, and fails when there is none, may then stand behind
    the ordered alternatives in place of all the unordered ones. *)
Lemma switch_reorder (l : list item) (sw : expr) r :
  (forall fl s e, In (fl, (s, e)) l -> (exists r0, yields e p r0) /\ forall p' f, yields e p (Succ p' f) -> alive s = true) ->
  sep l ->
  (forall s e, In (false, (s, e)) l -> alive s = true -> forall r0, yields e p r0 -> yields sw p r0) ->
  ((forall s e, In (false, (s, e)) l -> alive s = false) -> yields sw p Fail) ->
  yields (EAlt (map (fun i => snd (snd i)) l)) p r ->
  yields (EAlt (map (fun i => snd (snd i)) (filter fst l) ++ [sw])) p r.
Proof.
  induction l as [|[fl [s e]] l IH]; intros F1 Hsep Hsel1 Hsel2 H; cbn [map filter app fst snd] in *.
  - apply alt_nil_yields in H. subst r. apply alt_single. apply Hsel2. intros s e [].
  - destruct Hsep as [Hs Hsep].
    assert (F1' : forall fl0 s0 e0, In (fl0, (s0, e0)) l ->
              (exists r0, yields e0 p r0) /\ forall p' f, yields e0 p (Succ p' f) -> alive s0 = true) by (intros; eapply F1; right; eauto).
    apply alt_cons_yields in H as [(p1 & f1 & -> & H)|[He H]].
    + destruct fl; cbn [map app fst snd].
      * apply alt_cons_yields. left. exists p1, f1. split; [reflexivity|exact H].
      * (* the unordered item succeeds: it is live, so every later ordered item is dead and fails *)
        assert (Hl : alive s = true) by (eapply (F1 false s e); [left; reflexivity|exact H]).
        apply alt_all_fail; [|apply (Hsel1 s e (or_introl eq_refl) Hl); exact H].
        apply Forall_forall. intros e0 He0. apply in_map_iff in He0 as ([fl0 [s0 e1]] & <- & Hin). cbn [snd].
        apply filter_In in Hin as [Hin _]. destruct (F1' _ _ _ Hin) as [([|p2 f2] & Hr0) Hlive]; [exact Hr0|]. exfalso.
        pose proof (sep_dead s e l _ (conj Hs Hsep) Hin Hl) as D. cbn [fst snd] in D. rewrite (Hlive _ _ Hr0) in D. discriminate.
    + assert (Hrest : yields (EAlt (map (fun i => snd (snd i)) (filter fst l) ++ [sw])) p r).
      { apply IH; auto.
        - intros s0 e0 Hin. apply Hsel1. right. exact Hin.
        - intros Hno. destruct fl.
          + apply Hsel2. intros s0 e0 [E|Hin]; [discriminate|]. eapply Hno; eauto.
          + destruct (alive s) eqn:Hl; [exact (Hsel1 s e (or_introl eq_refl) Hl _ He)|].
            apply Hsel2. intros s0 e0 [E|Hin]; [inv E; exact Hl|]. eapply Hno; eauto. }
      destruct fl; cbn [map app fst snd]; [|exact Hrest].
      apply alt_cons_yields. right. split; [exact He|exact Hrest].
Qed.
End Reorder.


Lemma place_cases_perm l : forall maxv acc, Permutation (place_cases l maxv acc) (acc ++ l).
Proof.
  induction l as [|[s e] l IH]; intros maxv acc; cbn [place_cases].
  - rewrite app_nil_r. apply Permutation_refl.
  - destruct (Z.ltb maxv (len s)).
    + eapply Permutation_trans; [apply IH|]. rewrite <- app_assoc. apply Permutation_refl.
    + eapply Permutation_trans; [apply IH|]. cbn [app]. apply Permutation_middle.
Qed.

Lemma sep_inter_flags (S : list iset) : Forall Inv S -> forall es : list expr, sep (combine (inter_flags S) (combine S es)).
Proof.
  induction 1 as [|s S Hs HS IH]; intros es; [exact I|].
  destruct es as [|e es]; [exact I|].
  cbn [inter_flags combine sep]. split; [|apply IH].
  intros Hfl. apply Forall_forall. intros [fl0 [s0 r0]] Hin x Hx. cbn [fst snd].
  apply in_combine_r in Hin. apply in_combine_l in Hin.
  destruct S as [|s1 S1]; [destruct Hin|].
  destruct (mem s0 x) eqn:E0; [|reflexivity]. exfalso.
  assert (existsb (fun s' => intersects s s') (s1 :: S1) = true).
  { apply existsb_exists. exists s0. split; [exact Hin|]. rewrite Forall_forall in HS.
    apply intersects_spec; auto. exists x. auto. }
  congruence.
Qed.

(** the labels of a case: the members of the set that can label one *)
Lemma keys_of_in s x : In x (keys_of s) <-> mem s x = true /\ valid_rune x = true.
Proof. unfold keys_of. rewrite filter_In, elements_mem. reflexivity. Qed.

Lemma find_case_keys_of_some (cs : list (iset * expr)) c e1 :
  find_case (map (fun x => (keys_of (fst x), snd x)) cs) c = Some e1 -> exists s, In (s, e1) cs /\ mem s c = true.
Proof.
  unfold find_case. induction cs as [|[s e] cs IH]; cbn [map find_case_keys fst snd option_map]; [discriminate|].
  destruct (existsb (Z.eqb c) (keys_of s)) eqn:E.
  - cbn [option_map snd]. intros H. inv H. exists s. split; [left; reflexivity|].
    apply existsb_exists in E as (y & Hy & Hc). apply Z.eqb_eq in Hc. subst y.
    exact (proj1 (proj1 (keys_of_in _ _) Hy)).
  - intros H. destruct (IH H) as (s0 & H1 & H2). exists s0. split; [right; exact H1|exact H2].
Qed.

Lemma find_case_keys_of_none (cs : list (iset * expr)) c : valid_rune c = true ->
  find_case (map (fun x => (keys_of (fst x), snd x)) cs) c = None -> forall s e, In (s, e) cs -> mem s c = false.
Proof.
  unfold find_case. intros Hv. induction cs as [|[s e] cs IH]; cbn [map find_case_keys fst snd option_map]; intros H s0 e0 Hin; [destruct Hin|].
  destruct (existsb (Z.eqb c) (keys_of s)) eqn:E; [discriminate|].
  destruct Hin as [Ei|Hin]; [|eapply IH; eauto]. inv Ei.
  destruct (mem s0 c) eqn:Em; [|reflexivity]. exfalso.
  assert (existsb (Z.eqb c) (keys_of s0) = true); [|congruence].
  apply existsb_exists. exists c. split; [apply keys_of_in; split; assumption|apply Z.eqb_refl].
Qed.

(** A switch whose clauses and default are the unordered items of [l] runs one of them, and that is the live
    one if there is one: a clause is taken on a member of its set, and the sets of unordered items are disjoint. *)
Lemma branch_unord (buf : list rune) p (l : list item) cs sd d :
  (forall k, In k buf -> valid_rune k = true) -> sep l ->
  (forall s e, In (false, (s, e)) l <-> In (s, e) (cs ++ [(sd, d)])) ->
  exists s e, In (false, (s, e)) l /\ branch buf (map (fun x => (keys_of (fst x), snd x)) cs) d p = e /\
    forall s' e', In (false, (s', e')) l -> alive (nth_error buf p) s' = true -> (s', e') = (s, e).
Proof.
  intros Hbuf Hsep Hun. unfold branch.
  assert (Hd : In (false, (sd, d)) l) by (apply Hun, in_or_app; right; left; reflexivity).
  destruct (nth_error buf p) as [k|] eqn:Ek; [|exists sd, d; split; [exact Hd|]; split; [reflexivity|]; intros s' e' _ Hl'; discriminate].
  destruct (find_case _ k) as [e1|] eqn:Ef.
  - destruct (find_case_keys_of_some _ _ _ Ef) as (s1 & Hin1 & Hm1).
    assert (Hin : In (false, (s1, e1)) l) by (apply Hun, in_or_app; left; exact Hin1).
    exists s1, e1. split; [exact Hin|]. split; [reflexivity|].
    intros s' e' Hin' Hl'. exact (uniq_live (Some k) l _ _ _ _ Hsep Hin' Hin Hl' Hm1).
  - exists sd, d. split; [exact Hd|]. split; [reflexivity|].
    intros s' e' Hin' Hl'. apply Hun, in_app_or in Hin' as [Hin'|[E|[]]]; [|symmetry; exact E].
    unfold alive in Hl'. rewrite (find_case_keys_of_none _ _ (Hbuf k (nth_error_In _ _ Ek)) Ef _ _ Hin') in Hl'. discriminate.
Qed.

Lemma map_snd_snd_combine {A B C} : forall (lc : list C) (la : list A) (lb : list B),
  length la = length lc -> length lb = length lc ->
  map (fun i => snd (snd i)) (combine la (combine lb lc)) = lc.
Proof.
  induction lc as [|c lc IH]; intros la lb Ha Hb.
  - destruct la; [|discriminate]. reflexivity.
  - destruct la as [|a la]; [discriminate|]. destruct lb as [|b lb]; [discriminate|].
    cbn [combine map snd]. f_equal. apply IH; cbn in *; lia.
Qed.

Lemma inter_flags_length l : length (inter_flags l) = length l.
Proof. induction l as [|s l IH]; cbn [inter_flags length]; [reflexivity|]. rewrite IH. reflexivity. Qed.

Lemma in_unord {A} (l : list (bool * A)) y : In y (map snd (filter (fun x => negb (fst x)) l)) <-> In (false, y) l.
Proof.
  split.
  - intros H. apply in_map_iff in H as ([fl x] & E & Hin). cbn in E. subst x. apply filter_In in Hin as [Hin Hf].
    cbn in Hf. destruct fl; [discriminate|]. exact Hin.
  - intros H. apply in_map_iff. exists (false, y). split; [reflexivity|]. apply filter_In. split; [exact H|reflexivity].
Qed.


Lemma in_combine_maps {A B C} (F : A -> B) (G : A -> C) l a b : In (a, b) (combine (map F l) (map G l)) -> exists x, In x l /\ a = F x /\ b = G x.
Proof.
  induction l as [|y l IH]; cbn [map combine]; intros H; [destruct H|].
  destruct H as [E|H].
  - inv E. exists y. split; [left; reflexivity|auto].
  - destruct (IH H) as (x & H1 & H2 & H3). exists x. split; [right; exact H1|auto].
Qed.

(** the induction hypothesis of [expr_ind2] for a list, under a boolean condition that holds of the whole list *)
Lemma Forall_forallb_mp {A} (f : A -> bool) (P : A -> Prop) l :
  Forall (fun x => f x = true -> P x) l -> forallb f l = true -> Forall P l.
Proof. rewrite !Forall_forall, forallb_forall. auto. Qed.

Section Opt.
Local Open Scope nat_scope.
Variable g : grammar.
Variable T : list fsres.
Variable tab : list bool.
Variable rank : list nat.
Hypothesis Hwf : wf_b g tab rank = true.
Hypothesis HT : t_ok_b g T = true.
Variable ptx : nat.
Variable buf : list rune.
Variable penv : nat -> nat -> bool.
(** runes of the buffer are code points that can label a case (what []rune(string) yields) *)
Hypothesis Hbuf : forall c, In c buf -> valid_rune c = true.
Variable br : nat -> bool.               (* which rules are optimised (the reachable ones) *)

Definition tr (b : bool) (e : expr) : expr := if b then opt T e else e.
Definition g' : grammar :=
  map (fun p => match snd p with RBody b => RBody (tr (br (fst p)) b) | rb => rb end) (combine (seq 0 (length g)) g).

Notation ev := (peg_ev g ptx buf penv).
Notation ev' := (peg_ev g' ptx buf penv).
Notation yields := (yields g ptx buf penv).
Notation yields' := (PegInv.yields g' ptx buf penv).
Notation local_ok := (local_ok g tab).
Notation hrank := (hrank tab rank).

Lemma Hbuf_range c : In c buf -> (0 <= c <= maxRune)%Z.
Proof.
  intros H. pose proof (Hbuf c H) as V. unfold valid_rune in V.
  apply andb_true_iff in V as [V _]. apply andb_true_iff in V as [V1 V2]. apply Z.leb_le in V1, V2. lia.
Qed.

Lemma g'_nth r : nth_error g' r =
  match nth_error g r with Some (RBody b) => Some (RBody (tr (br r) b)) | x => x end.
Proof. unfold g'. rewrite nth_error_map, nth_error_zip_seq. destruct (nth_error g r) as [[b|k|]|]; reflexivity. Qed.

Lemma rule_facts r b : nth_error g r = Some (RBody b) -> local_ok b = true /\ ranges_ok b = true.
Proof.
  intros Hr. split.
  - pose proof (wf_rule g tab rank Hwf _ _ Hr) as W. cbn [rule_wf] in W.
    apply andb_true_iff in W as [W _]. apply andb_true_iff in W as [W _]. exact W.
  - pose proof (rule_ok g T HT _ _ Hr) as K. cbn [rule_t_ok] in K.
    apply andb_true_iff in K as [K _]. apply andb_true_iff in K as [K _]. exact K.
Qed.

Lemma tr_seq b es : tr b (ESeq es) = ESeq (map (tr b) es).
Proof. destruct b; cbn [tr opt]; [reflexivity|]. unfold tr. rewrite map_id. reflexivity. Qed.

Lemma tr_alt_false es : tr false (EAlt es) = EAlt (map (tr false) es).
Proof. unfold tr. rewrite map_id. reflexivity. Qed.

Definition preserved (e : expr) (p : nat) : Prop :=
  forall b n r, ev n e p = Some r -> exists m evs', ev' m (tr b e) p = Some (fst r, evs').

Definition Q (k h s : nat) : Prop :=
  forall e p, p <= length buf -> length buf - p <= k -> hrank e <= h -> esize e <= s ->
    local_ok e = true -> ranges_ok e = true -> preserved e p.

Lemma preserved_iff e p : preserved e p <-> forall b r, yields e p r -> yields' (tr b e) p r.
Proof.
  split.
  - intros H b r (n & evs & E). destruct (H b n _ E) as (m & evs' & E'). exists m, evs'. exact E'.
  - intros H b n [r evs] E. apply (H b r). exists n, evs. exact E.
Qed.

Lemma tr_leaf b e : (match e with ESeq _ | EAlt _ | EAnd _ | ENot _ | EQuery _ | EStar _ | EPlus _ | EPush _ => False | _ => True end) -> tr b e = e.
Proof. destruct b; [|reflexivity]. destruct e; cbn [tr opt]; intros H; try reflexivity; destruct H. Qed.

Lemma tr_unary K h b e : unary ptx K h -> tr b (K e) = K (tr b e).
Proof. intros U. destruct U, b; reflexivity. Qed.
Lemma tr_seqlike b E A B r0 : seqlike E A B r0 -> seqlike (tr b E) (tr b A) (tr b B) r0.
Proof. intros []; destruct b; constructor. Qed.

Lemma preserved_leaf e p : leaf e = true -> preserved e p.
Proof.
  intros L b n r H. rewrite tr_leaf by (destruct e; try discriminate; exact I).
  exists n, (snd r). rewrite <- (leaf_ev g) by exact L. rewrite H. destruct r; reflexivity.
Qed.

Lemma preserved_unary K h e p : unary ptx K h -> preserved e p -> preserved (K e) p.
Proof.
  intros U H. apply preserved_iff. intros b r Hy. rewrite (tr_unary _ _ _ _ U).
  apply (unary_yields _ _ _ _ _ _ U) in Hy as (r1 & H1 & ->). apply (unary_yields _ _ _ _ _ _ U).
  exists r1. split; [|reflexivity]. apply (proj1 (preserved_iff _ _) H). exact H1.
Qed.

Lemma preserved_then E A B r0 p : seqlike E A B r0 ->
  preserved A p -> (forall p1 f, yields A p (Succ p1 f) -> preserved B p1) -> preserved E p.
Proof.
  intros S HA HB. apply preserved_iff. intros b r Hy. apply (seqlike_shape _ _ _ _ _ _ _ _ (tr_seqlike b _ _ _ _ S)).
  apply (seqlike_shape _ _ _ _ _ _ _ _ S) in Hy as [[Hf ->]|(p1 & f1 & r2 & H1 & H2 & ->)].
  - left. split; [|reflexivity]. apply (proj1 (preserved_iff _ _) HA). exact Hf.
  - right. exists p1, f1, r2. split; [apply (proj1 (preserved_iff _ _) HA); exact H1|]. split; [|reflexivity].
    apply (proj1 (preserved_iff _ _) (HB _ _ H1)). exact H2.
Qed.

Lemma alt_elementwise b es p :
  (forall x, In x es -> preserved x p) ->
  forall r, yields (EAlt es) p r -> yields' (EAlt (map (tr b) es)) p r.
Proof.
  induction es as [|x es IH]; intros Hp r Hy; cbn [map].
  - apply alt_nil_yields in Hy. apply alt_nil_yields. exact Hy.
  - pose proof (proj1 (preserved_iff _ _) (Hp x (or_introl eq_refl)) b) as Hx.
    apply alt_cons_yields. apply alt_cons_yields in Hy as [(p1 & f1 & -> & Hy)|[Hy Hes]].
    + left. exists p1, f1. split; [reflexivity|apply Hx; exact Hy].
    + right. split; [apply Hx; exact Hy|]. apply IH; [intros y Hin; apply Hp; right; exact Hin|exact Hes].
Qed.

Definition sets_of (es : list expr) : list iset := map (fun x => snd (fs T x)) es.
Definition items_of (es : list expr) := combine (inter_flags (sets_of es)) (combine (sets_of es) (map (opt T) es)).
Definition unord_of (es : list expr) := map snd (filter (fun x => negb (fst x)) (items_of es)).
Definition ordered_of (es : list expr) := map (fun x => snd (snd x)) (filter (fun x => fst x) (items_of es)).

Lemma opt_alt es : opt T (EAlt es) =
  if negb (forallb (fun x => fst (fs T x)) es) then EAlt (map (opt T) es)
  else if Nat.leb (length es) (2 + length (filter (fun b => b) (inter_flags (sets_of es)))) then EAlt (map (opt T) es)
  else match rev (place_cases (unord_of es) 0 []) with
       | [] => EAlt (map (opt T) es)
       | (_, d) :: before =>
           if existsb (fun x => too_big (fst x)) before then EAlt (map (opt T) es)
           else let sw := ESwitch (map (fun x => (keys_of (fst x), snd x)) (rev before)) d in
                match ordered_of es with [] => sw | _ => EAlt (ordered_of es ++ [sw]) end
       end.
Proof.
  cbn [opt]. unfold unord_of, ordered_of, items_of, sets_of. rewrite !map_map.
  replace (forallb fst (map (fs T) es)) with (forallb (fun x => fst (fs T x)) es); [reflexivity|].
  induction es as [|x es IH]; cbn [forallb map]; [reflexivity|]. rewrite IH. reflexivity.
Qed.

(** what the rewrite makes of a choice: the element-wise translation, or the ordered alternatives
    followed by a switch over the others, the last of which becomes the default *)
Lemma opt_alt_cases (P : expr -> Prop) es :
  P (EAlt (map (opt T) es)) ->
  (forall sd d before,
     forallb (fun x => fst (fs T x)) es = true ->
     Permutation (rev before ++ [(sd, d)]) (unord_of es) ->
     existsb (fun x => too_big (fst x)) before = false ->
     P (match ordered_of es with
        | [] => ESwitch (map (fun x => (keys_of (fst x), snd x)) (rev before)) d
        | _ => EAlt (ordered_of es ++ [ESwitch (map (fun x => (keys_of (fst x), snd x)) (rev before)) d])
        end)) ->
  P (opt T (EAlt es)).
Proof.
  intros Hplain Hsw. rewrite opt_alt.
  destruct (negb (forallb (fun x => fst (fs T x)) es)) eqn:Ec; [exact Hplain|]. apply negb_false_iff in Ec.
  destruct (Nat.leb (length es) (2 + length (filter (fun b => b) (inter_flags (sets_of es))))); [exact Hplain|].
  destruct (rev (place_cases (unord_of es) 0%Z [])) as [|[sd d] before] eqn:Epl; [exact Hplain|].
  destruct (existsb (fun x => too_big (fst x)) before) eqn:Eb; [exact Hplain|].
  apply (Hsw sd d before Ec); [|exact Eb].
  rewrite <- (rev_involutive (place_cases (unord_of es) 0%Z [])) in Epl. apply (f_equal (@rev _)) in Epl.
  rewrite !rev_involutive in Epl. cbn [rev] in Epl. rewrite <- Epl. exact (place_cases_perm (unord_of es) 0%Z []).
Qed.

Lemma items_in fl s e' es : In (fl, (s, e')) (items_of es) -> exists x, In x es /\ s = snd (fs T x) /\ e' = opt T x.
Proof. unfold items_of, sets_of. intros H. apply in_combine_r in H. exact (in_combine_maps _ _ _ _ _ H). Qed.

Lemma items_exprs es : map (fun i => snd (snd i)) (items_of es) = map (opt T) es.
Proof.
  unfold items_of. apply map_snd_snd_combine; [rewrite inter_flags_length|]; unfold sets_of; rewrite !map_length; reflexivity.
Qed.

Lemma items_sep es : (forall x, In x es -> Inv (snd (fs T x))) -> sep (items_of es).
Proof. intros H. apply sep_inter_flags, Forall_forall. intros s Hs. apply in_map_iff in Hs as (x & <- & Hx). exact (H x Hx). Qed.

Lemma items_inv es : (forall x, In x es -> Inv (snd (fs T x))) -> Forall (fun i : item => Inv (fst (snd i))) (items_of es).
Proof. intros H. apply Forall_forall. intros [fl [s e']] Hin. destruct (items_in _ _ _ _ Hin) as (x & Hx & -> & _). exact (H x Hx). Qed.

Lemma alt_rewritten es p sd d before r :
  p <= length buf ->
  forallb ranges_ok es = true ->
  forallb (fun x => fst (fs T x)) es = true ->
  (forall x, In x es -> has_result g ptx buf penv x p) ->
  (forall x, In x es -> preserved x p) ->
  Permutation (rev before ++ [(sd, d)]) (unord_of es) ->
  yields' (EAlt (map (opt T) es)) p r ->
  yields' (match ordered_of es with
           | [] => ESwitch (map (fun x => (keys_of (fst x), snd x)) (rev before)) d
           | _ => EAlt (ordered_of es ++ [ESwitch (map (fun x => (keys_of (fst x), snd x)) (rev before)) d])
           end) p r.
Proof.
  intros Hp Hr Hc Htot Hpres Hperm Hder.
  set (sw := ESwitch (map (fun x => (keys_of (fst x), snd x)) (rev before)) d).
  set (c := nth_error buf p).
  rewrite forallb_forall in Hr, Hc.
  (* every alternative has a result, the same before and after the rewrite; a success starts in its set *)
  assert (F1 : forall fl s e', In (fl, (s, e')) (items_of es) ->
            (exists r0, yields' e' p r0) /\ forall p' f, yields' e' p (Succ p' f) -> alive c s = true).
  { intros fl s e' Hin. destruct (items_in _ _ _ _ Hin) as (x & Hx & -> & ->).
    destruct (proj1 (has_result_iff _ _ _ _ _ _) (Htot x Hx)) as (r1 & H1).
    pose proof (proj1 (preserved_iff _ _) (Hpres x Hx) true _ H1) as H1'. split; [exists r1; exact H1'|].
    intros p' f H'. rewrite <- (yields_det _ _ _ _ _ _ _ _ H' H1') in H1. destruct H1 as (n & evs & Ee).
    destruct (first_sound g T HT ptx buf penv Hbuf_range n x (Hr _ Hx) p p' f evs Hp Ee) as [A B].
    destruct (B (A (Hc _ Hx))) as (k & Hk1 & Hk2). unfold alive, c. rewrite Hk1. exact Hk2. }
  assert (Hsep : sep (items_of es)) by (apply items_sep; intros x Hx; exact (fs_inv g T HT x (Hr x Hx))).
  (* the switch runs an unordered item [e0], the live one if there is one; otherwise [e0] is not live and fails *)
  destruct (branch_unord buf p (items_of es) (rev before) sd d Hbuf Hsep) as (s0 & e0 & Hin0 & Eb & Hu).
  { intros s e'. rewrite <- in_unord. split; apply Permutation_in; [apply Permutation_sym|]; exact Hperm. }
  assert (Hsw : forall r0, yields' e0 p r0 -> yields' sw p r0) by (intros r0 H'; apply switch_yields; rewrite Eb; exact H').
  rewrite <- (items_exprs es) in Hder. apply (switch_reorder c g' ptx buf penv p (items_of es) sw r F1 Hsep) in Hder.
  - change (yields' (EAlt (ordered_of es ++ [sw])) p r) in Hder.
    destruct (ordered_of es) as [|o1 os]; [apply alt_single; exact Hder|exact Hder].
  - intros s e' Hin Hl r0 H'. apply Hsw. pose proof (Hu s e' Hin Hl) as E. inv E. exact H'.
  - intros Hno. apply Hsw. destruct (F1 _ _ _ Hin0) as [([|p' f] & H') Hlive]; [exact H'|].
    pose proof (Hlive _ _ H') as Hl. rewrite (Hno _ _ Hin0) in Hl. discriminate.
Qed.

Theorem opt_preserved_at e p : p <= length buf -> local_ok e = true -> ranges_ok e = true -> preserved e p.
Proof.
  revert e p.
  apply (head_rank_ind g buf tab rank (fun e p => ranges_ok e = true -> preserved e p)). intros e p Hp Hl IH Hr.
  destruct e; cbn [WF.local_ok] in Hl; cbn [ranges_ok] in Hr; try (apply preserved_leaf; reflexivity).
  - (* EName *)
    apply preserved_iff. intros b x Hy. rewrite tr_leaf by exact I. apply name_yields in Hy. apply name_yields. rewrite g'_nth.
    destruct (nth_error g r) as [[body|a|]|] eqn:Eg; try exact Hy.
    destruct Hy as (r1 & H1 & ->). exists r1. split; [|reflexivity]. destruct (rule_facts _ _ Eg) as [Wl Wr].
    apply (proj1 (preserved_iff _ _) (IH body p Hp Wl (below_rank _ _ _ _ _ (body_rank g tab rank Hwf _ _ Eg)) Wr)). exact H1.
  - (* ESeq *)
    destruct es as [|x es].
    { apply preserved_iff. intros b r Hy. rewrite tr_seq. apply seq_nil_yields in Hy. apply seq_nil_yields. exact Hy. }
    cbn [forallb] in Hr. apply andb_true_iff in Hr as [Hrx Hres].
    destruct (seqlike_parts g ptx buf penv tab rank Hwf _ _ _ _ _ _ (sl_seq x es) Hp Hl IH) as [I1 I2].
    apply (preserved_then _ _ _ _ _ (sl_seq x es)); [exact (I1 Hrx)|intros p1 f Hy; exact (I2 p1 f Hy Hres)].
  - (* EAlt: the ordered alternatives now stand in front of the switch, so one that the choice never reached,
       an unordered one before it having succeeded, is run after the rewrite; [alt_rewritten] therefore wants
       a result of every alternative, and totality provides it *)
    pose proof Hr as Hr'. rewrite forallb_forall in Hl, Hr.
    assert (Hpres : forall x, In x es -> preserved x p) by (intros x Hx; apply IH; auto using below_alt_in).
    apply preserved_iff. intros b r Hy.
    pose proof (fun b0 => alt_elementwise b0 es p Hpres r Hy) as Helem.
    destruct b; [|rewrite tr_alt_false; apply Helem].
    apply (opt_alt_cases (fun e => yields' e p r)); [apply (Helem true)|]. intros sd d before Hc Hperm _.
    apply (alt_rewritten es p sd d before r Hp Hr' Hc); auto; [|exact (Helem true)].
    intros x Hx. exact (total_at g ptx buf penv tab rank Hwf x p Hp (Hl x Hx)).
  - apply (preserved_unary _ _ _ _ (u_and ptx)), IH; auto. apply (below_unary _ _ _ _ _ _ _ (u_and ptx)).
  - apply (preserved_unary _ _ _ _ (u_not ptx)), IH; auto. apply (below_unary _ _ _ _ _ _ _ (u_not ptx)).
  - apply (preserved_unary _ _ _ _ (u_query ptx)), IH; auto. apply (below_unary _ _ _ _ _ _ _ (u_query ptx)).
  - destruct (seqlike_parts g ptx buf penv tab rank Hwf _ _ _ _ _ _ (sl_star e) Hp Hl IH) as [I1 I2].
    apply (preserved_then _ _ _ _ _ (sl_star e)); [exact (I1 Hr)|intros p1 f Hy; exact (I2 p1 f Hy Hr)].
  - destruct (seqlike_parts g ptx buf penv tab rank Hwf _ _ _ _ _ _ (sl_plus e) Hp Hl IH) as [I1 I2].
    apply (preserved_then _ _ _ _ _ (sl_plus e)); [exact (I1 Hr)|intros p1 f Hy; exact (I2 p1 f Hy Hr)].
  - apply (preserved_unary _ _ _ _ (u_push ptx)), IH; auto. apply (below_unary _ _ _ _ _ _ _ (u_push ptx)).
  - discriminate.
Qed.

Theorem opt_preserved : forall k h s, Q k h s.
Proof. intros k h s e p Hp _ _ _. exact (opt_preserved_at e p Hp). Qed.

(** every parse of the original grammar is reproduced by the optimised one: same result and forest *)
Theorem optimize_sound_rules r n x :
  peg_parse g ptx buf penv n r = Some x -> exists m evs', peg_parse g' ptx buf penv m r = Some (fst x, evs').
Proof.
  unfold peg_parse. intros H.
  assert (Hl : local_ok (EName r) = true).
  { destruct n as [|n]; [discriminate|]. cbn [peg_ev] in H. cbn [WF.local_ok]. destruct (nth_error g r) as [[body|a|]|]; try discriminate; reflexivity. }
  exact (opt_preserved_at (EName r) 0 (Nat.le_0_l _) Hl eq_refl false n x H).
Qed.

End Opt.

Definition valid_buf (buf : list rune) : Prop := forall c, In c buf -> valid_rune c = true.

Lemma optimize_is_g' g T : fs_table g = (T, true) ->
  optimize g = g' g T (fun i => nth i (fst (count_rules g)) false).
Proof.
  intros E. unfold optimize, g'. rewrite E. cbn [negb]. apply map_ext. intros [i rb]. cbn [fst snd].
  destruct rb; try reflexivity. unfold tr. destruct (nth i (fst (count_rules g)) false); reflexivity.
Qed.

Lemma optimize_nth g r b' : nth_error (optimize g) r = Some (RBody b') ->
  exists b, nth_error g r = Some (RBody b) /\ (b' = b \/ exists T, fs_table g = (T, true) /\ b' = opt T b).
Proof.
  intros H. destruct (fs_table g) as [T [|]] eqn:Et.
  - rewrite (optimize_is_g' g T Et), g'_nth in H. destruct (nth_error g r) as [[b|k|]|]; try discriminate.
    inv H. exists b. split; [reflexivity|]. unfold tr. destruct (nth r (fst (count_rules g)) false); eauto.
  - unfold optimize in H. rewrite Et in H. exists b'. auto.
Qed.

Section Whole.
Local Open Scope nat_scope.
Variable g : grammar.
Variable tab : list bool.
Variable rank : list nat.
Hypothesis Hwf : wf_b g tab rank = true.
Hypothesis Hopt : opt_ok_b g = true.
Variable ptx : nat.
Variable buf : list rune.
Variable penv : nat -> nat -> bool.
Hypothesis Hbuf : valid_buf buf.

(** the optimised grammar gives a rule the results the original one gives it, and no others; this is the
    form to use, [optimize_sound] and [optimize_complete] below are its two directions said with [peg_parse] *)
Theorem optimize_yields r x :
  yields g ptx buf penv (EName r) 0 x <-> yields (optimize g) ptx buf penv (EName r) 0 x.
Proof.
  unfold opt_ok_b in Hopt. destruct (fs_table g) as [T st] eqn:E.
  apply andb_true_iff in Hopt as [Hst HT]. subst st. rewrite (optimize_is_g' g T E).
  assert (Hfwd : forall y, yields g ptx buf penv (EName r) 0 y -> yields (g' g T (fun i => nth i (fst (count_rules g)) false)) ptx buf penv (EName r) 0 y).
  { intros y (n & evs & H). exact (optimize_sound_rules g T tab rank Hwf HT ptx buf penv Hbuf _ r n _ H). }
  split; [apply Hfwd|]. intros H.
  (* the original has a result, the optimised grammar reproduces it, and has one result only *)
  assert (Hl : local_ok g tab (EName r) = true).
  { apply name_yields in H. rewrite g'_nth in H. cbn [local_ok]. destruct (nth_error g r) as [[b|k|]|]; try reflexivity; destruct H. }
  destruct (total_at g ptx buf penv tab rank Hwf (EName r) 0 (Nat.le_0_l _) Hl) as (n & [rx evs] & Ex).
  assert (Hx : yields g ptx buf penv (EName r) 0 rx) by (exists n, evs; exact Ex).
  rewrite (yields_det _ _ _ _ _ _ _ _ H (Hfwd _ Hx)). exact Hx.
Qed.

(** every parse of the original grammar is a parse of the optimised one with the same result *)
Theorem optimize_sound r n x :
  peg_parse g ptx buf penv n r = Some x ->
  exists m evs', peg_parse (optimize g) ptx buf penv m r = Some (fst x, evs').
Proof. intros H. destruct x as [x evs]. apply (optimize_yields r x). exists n, evs. exact H. Qed.

(** and conversely: the optimised grammar has no other results *)
Theorem optimize_complete r m y :
  peg_parse (optimize g) ptx buf penv m r = Some y ->
  exists n evs, peg_parse g ptx buf penv n r = Some (fst y, evs).
Proof. intros H. destruct y as [y evs]. apply (optimize_yields r y). exists m, evs. exact H. Qed.
End Whole.
