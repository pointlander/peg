(** The headline statement for the parser peg generates, at the level of the statements it writes: for every grammar with
    a well-formedness certificate, under every combination of -inline and -switch and with or without the memo table, on
    every input and from every earlier parser state, the call Parse() makes - the first rule's function in a reset
    parser - terminates, is deterministic, and returns the verdict, the offset and the token list of the PEG semantics
    of the grammar AS WRITTEN (the unoptimised tree).  No hypothesis about the analysis, the optimised tree, the emitter's
    bookkeeping or the existence of a result.  [parser_runs] says it of every rule that has a function;
    Properties/C01 .. C13 read their statements off it. *)
From PegV Require Import Base.Tac Spec.Syntax Spec.Peg Spec.WF Model.Machine Model.Analyses Model.Optimize Model.Gen Model.Emit Model.Exec
  Proofs.PegFacts Proofs.OptSound Proofs.Top Proofs.OptTop Proofs.SEmitFile Proofs.EmitUse Proofs.CountReach Proofs.CountInline Proofs.ExecDet
  Proofs.OptClosed Proofs.Forest Spec.Tokens Model.Runtime Proofs.RuntimeProofs Proofs.Sim.
Local Open Scope nat_scope.

Lemma optimize_length g : length (optimize g) = length g.
Proof.
  unfold optimize. destruct (fs_table g) as [T st]. destruct (negb st); [reflexivity|].
  rewrite map_length, combine_length, seq_length. lia.
Qed.

Lemma reached_start g : g <> [] -> reached (count_rules g) 0 = true.
Proof. intros H. exact (count_rules_start g H). Qed.

Definition tree_of (sw : bool) (g : grammar) : grammar := if sw then optimize g else g.

Lemma tree_nonempty sw g : g <> [] -> tree_of sw g <> [].
Proof.
  intros Hne. destruct sw; [|exact Hne]. intros E. apply Hne. apply length_zero_iff_nil.
  rewrite <- optimize_length. cbn [tree_of] in E. rewrite E. reflexivity.
Qed.

(** the call Parse() makes: the first rule always has a function ([slot_ok_start]) and is always marked *)
Lemma reached_first sw g rb : nth_error g 0 = Some rb -> reached (count_rules (tree_of sw g)) 0 = true.
Proof. intros Hr. apply reached_start, tree_nonempty. intros E. rewrite E in Hr. discriminate. Qed.

Section Written.
Variable g : grammar.
Variable tab : list bool.
Variable rank : list nat.
Hypothesis Hwf : wf_b g tab rank = true.
Hypothesis Hg : good_grammar g.
Hypothesis Hro : forall r b, nth_error g r = Some (RBody b) -> ranges_ok b = true.
Hypothesis Ha : grammar_alt2 g.
Hypothesis Hc : closed_names g.

Lemma tree_facts sw :
  good_grammar (tree_of sw g) /\ good_switches (tree_of sw g) /\ grammar_alt2 (tree_of sw g) /\ closed_names (tree_of sw g).
Proof.
  destruct sw; cbn [tree_of].
  - split; [exact (optimize_good_grammar g Hg)|]. split; [exact (optimize_good_switches g tab rank Hwf Hro)|].
    split; [exact (optimize_alt2 g Ha)|exact (optimize_closed_names g Hc)].
  - split; [exact Hg|]. split; [exact (plain_good_switches g Hro)|]. split; [exact Ha|exact Hc].
Qed.

Variable ptx : nat.
Variable buf : list rune.
Variable penv : nat -> nat -> bool.
Hypothesis Hbuf : good_buf buf.
Hypothesis Hvalid : valid_buf buf.

Lemma tree_result sw r rb : nth_error g r = Some rb -> rb <> RNil ->
  exists n res evs evs', peg_parse g ptx buf penv n r = Some (res, evs) /\
    peg_parse (tree_of sw g) ptx buf penv n r = Some (res, evs') /\ (sw = false -> evs' = evs).
Proof.
  intros Hr Hn. destruct sw; cbn [tree_of].
  - destruct (optimize_result g tab rank Hwf Hro ptx buf penv r rb Hvalid Hr Hn) as (n & res & evs & evs' & H & H').
    exists n, res, evs, evs'. split; [exact H|]. split; [exact H'|discriminate].
  - destruct (c01_total g ptx buf penv tab rank r rb Hwf Hr Hn) as (n & [res evs] & H). exists n, res, evs, evs. auto.
Qed.

(** Every rule function of the generated file, called in a reset parser: the semantics of the grammar as written has a
    result; the function has an execution, which returns and is the only one; it returns what the machine returns:
    the verdict of that result and, on success, its offset and the post-order of its derivation; on failure the error
    token of the attempt the emitted tree makes (the attempt of the grammar as written when -switch is off). *)
Theorem parser_runs memo inline sw r rb st0 :
  nth_error g r = Some rb -> rb <> RNil ->
  slot_ok (tree_of sw g) inline r -> reached (count_rules (tree_of sw g)) r = true ->
  exists n res evs evs' b st',
    peg_parse g ptx buf penv n r = Some (res, evs) /\
    peg_parse (tree_of sw g) ptx buf penv n r = Some (res, evs') /\ (sw = false -> evs' = evs) /\
    machine (tree_of sw g) ptx buf penv memo inline n r st0 = Some (Ret b st') /\
    xcall buf penv (mk_opts true memo inline (tree_of sw g)) (gen_fn (tree_of sw g) ptx inline) r (reset st0) (Ret b st') /\
    (forall out, xcall buf penv (mk_opts true memo inline (tree_of sw g)) (gen_fn (tree_of sw g) ptx inline) r (reset st0) out -> out = Ret b st') /\
    match res with
    | Succ p f => b = true /\ pos st' = p /\ live st' = Syntax.flat f
    | Fail => b = false /\ maxtok st' = first_furthest evs'
    end.
Proof.
  intros Hr Hn Hsl Hre. destruct (tree_facts sw) as (Hg' & Hs' & Ha' & Hc').
  destruct (tree_result sw r rb Hr Hn) as (n & res & evs & evs' & H & H' & He).
  destruct (code_runs _ ptx buf penv Hg' Hbuf Hs' Ha' Hc' memo inline n r st0 _ Hsl Hre H') as (b & st' & M & Hx & Hu).
  exists n, res, evs, evs', b, st'. do 5 (split; [assumption|]). split; [exact Hu|].
  pose proof (machine_correct _ ptx buf penv Hg' Hbuf Hs' memo inline n r st0 _ Hsl H') as P. unfold machine in M.
  destruct res as [|p f]; cbn [parse_spec] in P.
  - destruct P as (s & R & Mx). rewrite M in R. inv R. auto.
  - destruct P as (s & R & Px & _ & L & _). rewrite M in R. inv R. auto.
Qed.

(** ... so the functions that two option combinations generate for a rule agree with each other: same verdict and, on
    success, same offset and same token list - from any two earlier states *)
Corollary rule_functions_agree memo1 inline1 sw1 memo2 inline2 sw2 r rb st1 st2 :
  nth_error g r = Some rb -> rb <> RNil ->
  slot_ok (tree_of sw1 g) inline1 r -> reached (count_rules (tree_of sw1 g)) r = true ->
  slot_ok (tree_of sw2 g) inline2 r -> reached (count_rules (tree_of sw2 g)) r = true ->
  forall out1 out2,
    xcall buf penv (mk_opts true memo1 inline1 (tree_of sw1 g)) (gen_fn (tree_of sw1 g) ptx inline1) r (reset st1) out1 ->
    xcall buf penv (mk_opts true memo2 inline2 (tree_of sw2 g)) (gen_fn (tree_of sw2 g) ptx inline2) r (reset st2) out2 ->
    exists b s1 s2, out1 = Ret b s1 /\ out2 = Ret b s2 /\ (b = true -> pos s1 = pos s2 /\ live s1 = live s2).
Proof.
  intros Hr Hn S1 R1 S2 R2 out1 out2 X1 X2.
  destruct (parser_runs memo1 inline1 sw1 r rb st1 Hr Hn S1 R1) as (n1 & res & evs1 & ? & b1 & s1 & P1 & _ & _ & _ & _ & U1 & K1).
  destruct (parser_runs memo2 inline2 sw2 r rb st2 Hr Hn S2 R2) as (n2 & res2 & evs2 & ? & b2 & s2 & P2 & _ & _ & _ & _ & U2 & K2).
  rewrite (U1 _ X1), (U2 _ X2).
  pose proof (peg_ev_det g ptx buf penv _ _ _ _ _ _ P1 P2) as E. inv E.
  destruct res2 as [|p f].
  - destruct K1 as (-> & _). destruct K2 as (-> & _). exists false, s1, s2. split; [reflexivity|]. split; [reflexivity|]. discriminate.
  - destruct K1 as (-> & Q1 & L1). destruct K2 as (-> & Q2 & L2).
    exists true, s1, s2. split; [reflexivity|]. split; [reflexivity|]. intros _. split; congruence.
Qed.

End Written.

(** The call Parse() makes is to the first rule's function: the parsers generated under any two option combinations
    agree with each other (C02 / C06 / C12 at the level of the generated statements, no side condition). *)
Corollary generated_parsers_agree g tab rank :
  wf_b g tab rank = true -> good_grammar g ->
  (forall r b, nth_error g r = Some (RBody b) -> ranges_ok b = true) ->
  grammar_alt2 g -> closed_names g ->
  forall ptx buf penv, good_buf buf -> valid_buf buf ->
  forall memo1 inline1 sw1 memo2 inline2 sw2 rb st1 st2,
    nth_error g 0 = Some rb -> rb <> RNil ->
    forall out1 out2,
      xcall buf penv (mk_opts true memo1 inline1 (tree_of sw1 g)) (gen_fn (tree_of sw1 g) ptx inline1) 0 (reset st1) out1 ->
      xcall buf penv (mk_opts true memo2 inline2 (tree_of sw2 g)) (gen_fn (tree_of sw2 g) ptx inline2) 0 (reset st2) out2 ->
      exists b s1 s2, out1 = Ret b s1 /\ out2 = Ret b s2 /\ (b = true -> pos s1 = pos s2 /\ live s1 = live s2).
Proof.
  intros Hwf Hg Hro Ha Hc ptx buf penv Hb Hv memo1 inline1 sw1 memo2 inline2 sw2 rb st1 st2 Hr Hn.
  exact (rule_functions_agree g tab rank Hwf Hg Hro Ha Hc ptx buf penv Hb Hv memo1 inline1 sw1 memo2 inline2 sw2 0 rb st1 st2 Hr Hn
           (slot_ok_start _ inline1) (reached_first sw1 g rb Hr) (slot_ok_start _ inline2) (reached_first sw2 g rb Hr)).
Qed.
Print Assumptions generated_parsers_agree.

(** Tokens, actions and the syntax tree of an accepted input (C03, C04, C05).  When the grammar as written accepts a
    prefix with derivation forest [f], whatever the option combination the tokens the generated parser has recorded are
    the post-order of [f]: the last one is the first rule over the consumed prefix, all lie within the input; Execute()
    over them runs the actions of the derivation in order, each with the most recently completed capture; AST() is the
    derivation tree without its empty nodes and the printers walk it in pre-order. *)
Theorem generated_parser_tokens_actions_tree g tab rank :
  wf_b g tab rank = true -> good_grammar g ->
  (forall r b, nth_error g r = Some (RBody b) -> ranges_ok b = true) ->
  grammar_alt2 g -> closed_names g ->
  forall ptx buf penv, good_buf buf -> valid_buf buf ->
  forall memo inline sw rb st0,
    nth_error g 0 = Some rb -> rb <> RNil ->
    exists n res evs, peg_parse g ptx buf penv n 0 = Some (res, evs) /\
      forall p f, res = Succ p f ->
      forall out, xcall buf penv (mk_opts true memo inline (tree_of sw g)) (gen_fn (tree_of sw g) ptx inline) 0 (reset st0) out ->
        exists st' kids, out = Ret true st' /\ pos st' = p /\ f = [Node 0 0 p kids] /\
          live st' = Syntax.flat kids ++ [(0, (0, p))] /\
          Forall (inb 0 (length buf)) (live st') /\
          execute g ptx (live st') (0, 0) = fst (trace_forest g ptx f (0, 0)) /\
          ast (live st') = (if 0 =? p then None else Some (Rose (0, (0, p)) (prune_forest kids))) /\
          print_tree (live st') = (if 0 =? p then [] else preorder 0 (Rose (0, (0, p)) (prune_forest kids))).
Proof.
  intros Hwf Hg Hro Ha Hc ptx buf penv Hbuf Hvalid memo inline sw rb st0 Hr Hn.
  destruct (parser_runs g tab rank Hwf Hg Hro Ha Hc ptx buf penv Hbuf Hvalid memo inline sw 0 rb st0 Hr Hn (slot_ok_start _ inline) (reached_first sw g rb Hr))
    as (n & res & evs & evs' & b & st' & H & _ & _ & _ & _ & Hu & K).
  exists n, res, evs. split; [exact H|]. intros p f E out Hx. subst res. rewrite (Hu _ Hx). destruct K as (-> & Hp & L).
  (* the rest is about [f] alone *)
  destruct (parse_tokens g ptx buf penv n 0 p f evs H) as (kids & Hf & E3 & F & A & P).
  exists st', kids. rewrite L. split; [reflexivity|]. split; [exact Hp|]. split; [exact Hf|]. split; [exact E3|].
  split; [exact F|]. split; [apply execute_is_trace|]. split; [exact A|exact P].
Qed.
Print Assumptions generated_parser_tokens_actions_tree.

(** The same for the file generated with -noast (no tokens, no memo table; actions run inline): under either -inline
    setting and with or without -switch every rule function, called in a reset parser, terminates, is deterministic, and
    returns the verdict and the offset of the PEG semantics of the grammar as written. *)
Theorem noast_parser_runs g tab rank :
  wf_b g tab rank = true -> good_grammar g ->
  (forall r b, nth_error g r = Some (RBody b) -> ranges_ok b = true) ->
  grammar_alt2 g -> closed_names g ->
  forall ptx buf penv, good_buf buf -> valid_buf buf ->
  forall inline sw r rb st0,
    (forall rb0, nth_error (tree_of sw g) ptx = Some rb0 -> rb0 = RNil) ->
    nth_error g r = Some rb -> rb <> RNil ->
    o_inline (mk_opts false false inline (tree_of sw g)) r = false -> reached (count_rules (tree_of sw g)) r = true ->
    exists n res evs st',
      peg_parse g ptx buf penv n r = Some (res, evs) /\
      xcall buf penv (mk_opts false false inline (tree_of sw g)) (gen_fn_noast (tree_of sw g) ptx inline) r (reset st0)
            (Ret (match res with Fail => false | Succ _ _ => true end) st') /\
      (forall out, xcall buf penv (mk_opts false false inline (tree_of sw g)) (gen_fn_noast (tree_of sw g) ptx inline) r (reset st0) out ->
                   out = Ret (match res with Fail => false | Succ _ _ => true end) st') /\
      match res with Succ p _ => pos st' = p /\ p <= length buf | Fail => True end.
Proof.
  intros Hwf Hg Hro Ha Hc ptx buf penv Hbuf Hvalid inline sw r rb st0 Hptx Hr Hn Hi Hre.
  destruct (tree_facts g tab rank Hwf Hg Hro Ha Hc sw) as (Hg' & Hs' & Ha' & Hc').
  destruct (tree_result g tab rank Hwf Hro ptx buf penv Hvalid sw r rb Hr Hn) as ([|n] & res & evs & evs' & H & H' & _); [discriminate|].
  destruct (generated_code_noast _ ptx buf penv Hg' Hbuf Hs' inline n r st0 _ Hptx (deep_table_all _ inline Ha' Hc') Hi Hre H')
    as (st' & Hx & _ & P). cbn [fst] in *.
  exists (S n), res, evs, st'. split; [exact H|]. split; [exact Hx|]. split; [|exact P].
  intros out Hx'. exact (xcall_det _ _ _ _ _ _ _ _ Hx' Hx).
Qed.
