(** Top-level statements about Parse: the machine started by p.parse on a reset state returns what
    the reference semantics says, for every memo / inline setting the generator can choose. *)
From PegV Require Import Base.Tac Spec.Syntax Spec.Peg Model.Machine Model.SkipCheck Model.Runtime Model.Analyses Model.Gen Spec.Tokens Spec.WF
  Proofs.Sim Proofs.AsuSound Proofs.Forest Proofs.RuntimeProofs Proofs.Total Proofs.SimNoast.

Definition good_grammar (g : grammar) : Prop := forall r b, nth_error g r = Some (RBody b) -> expr_ok b = true.
Definition good_buf (buf : list rune) : Prop := forall c, In c buf -> c <> endSymbol.

(** every switch node is well guarded, whichever rules end up inlined (vacuous without -switch) *)
Definition good_switches (g : grammar) : Prop :=
  forall inline, grammar_swok g (fun r => nth r (inline_table inline g) false).
Definition good_switches_b (g : grammar) : bool :=
  let fuel := S (gsize g) * S (length g) in
  grammar_swok_b g (fun r => nth r (inline_table true g) false) fuel &&
  grammar_swok_b g (fun r => nth r (inline_table false g) false) fuel.
Lemma good_switches_b_ok g : good_switches_b g = true -> good_switches g.
Proof.
  unfold good_switches_b. intros H inline. apply andb_true_iff in H as [H1 H2].
  destruct inline; eapply grammar_swok_b_sound; eauto.
Qed.

Lemma good_grammar_b_ok g : good_grammar_b g = true -> good_grammar g.
Proof.
  intros H r b Hr. unfold good_grammar_b in H. rewrite forallb_forall in H.
  specialize (H _ (nth_error_In _ _ Hr)). exact H.
Qed.

Lemma nth_map_seq (f : nat -> bool) n r : nth r (map f (seq 0 n)) false = true -> f r = true.
Proof.
  intros H. destruct (Nat.ltb_spec r n) as [L|L].
  - rewrite (nth_indep _ false (f 0)) in H by (rewrite map_length, seq_length; exact L).
    rewrite map_nth in H. rewrite seq_nth in H by exact L. exact H.
  - rewrite nth_overflow in H by (rewrite map_length, seq_length; lia). discriminate.
Qed.

(** the calls the generator emits without a failure branch ([o_asu] of [mk_opts]) cannot fail *)
Lemma gen_asu_sound g ptx buf penv ast memo inline r :
  o_asu (mk_opts ast memo inline g) r = true -> forall n p evs, peg_ev g ptx buf penv n (EName r) p <> Some (Fail, evs).
Proof. intros Hr. apply asu_rule_sound. unfold mk_opts in Hr. cbn [o_asu] in Hr. apply nth_map_seq in Hr. exact Hr. Qed.

(** a parse that has a result starts at a slot that holds a rule *)
Lemma parse_slot g ptx buf penv n r rr : peg_parse g ptx buf penv (S n) r = Some rr -> exists b, nth_error g r = Some b /\ b <> RNil.
Proof.
  unfold peg_parse. cbn [peg_ev]. destruct (nth_error g r) as [[b|k|]|]; try discriminate; eexists; (split; [reflexivity|discriminate]).
Qed.

(** ... so [entry] goes on to the rule function when that rule is not compiled in place *)
Lemma entry_run g ptx buf penv o n r st rr : peg_parse g ptx buf penv (S n) r = Some rr -> o_inline o r = false ->
  entry g ptx buf penv o (S n) r st = run_f g ptx buf penv o (S n) (EName r) false false st.
Proof.
  intros H Hinl. destruct (parse_slot g ptx buf penv n r rr H) as (rb & Erb & Hnn).
  unfold entry. rewrite Erb, Hinl. destruct rb; congruence.
Qed.

Section Top.
Variable g : grammar.
Variable ptx : nat.
Variable buf : list rune.
Variable penv : nat -> nat -> bool.
Hypothesis Hg : good_grammar g.
Hypothesis Hbuf : good_buf buf.

(** The result of p.parse(r) on a parser that was Reset: any previous state [st0] only survives
    as the stale token slice. *)
Definition parse_spec (o : opts) (n r : nat) (st0 : mstate) (rr : out) : Prop :=
  match rr with
  | (Succ p f, evs) =>
      exists st', entry g ptx buf penv o n r (reset st0) = Some (Ret true st') /\
                  pos st' = p /\ p <= length buf /\ live st' = flat f /\ tix st' = length (flat f) /\
                  (exists kids, f = [Node r 0 p kids])
  | (Fail, evs) =>
      exists st', entry g ptx buf penv o n r (reset st0) = Some (Ret false st') /\
                  maxtok st' = first_furthest evs
  end.

Theorem parse_correct (o : opts) :
  o_ast o = true ->
  (forall r, o_asu o r = true -> forall n p evs, peg_ev g ptx buf penv n (EName r) p <> Some (Fail, evs)) ->
  grammar_swok g (o_inline o) ->
  forall n r st0 rr, o_inline o r = false ->
    peg_parse g ptx buf penv n r = Some rr -> parse_spec o n r st0 rr.
Proof.
  intros Hast Hasu Hswo n r st0 rr Hinl H. unfold peg_parse in H.
  set (st := reset st0).
  assert (Hok : okst buf st) by (unfold okst, st, reset; cbn; lia).
  assert (Hm : memo_ok g ptx buf penv st) by (intros r' p' m' Hl; discriminate).
  pose proof (sim g ptx buf penv o Hast Hg Hswo Hasu Hbuf n (EName r) false false st rr Hok Hm eq_refl I (flag_ok_false g buf o (EName r) false st) H) as HS.
  destruct n as [|n]; [discriminate|].
  change (live st) with (@nil tok) in HS. change (maxtok st) with zero_tok in HS.
  destruct rr as [[|p f] evs]; cbn [simr parse_spec] in *; fold st; rewrite (entry_run g ptx buf penv o n r st _ H Hinl).
  - destruct HS as (st' & R & _ & _ & M & _). exists st'. auto.
  - destruct HS as (st' & R & P & Ok & T & L & M & _).
    destruct (name_shape _ _ _ _ _ _ _ _ _ _ H) as (kids & Hf & _).
    exists st'. rewrite <- P. repeat split; auto; try apply Ok. exists kids. rewrite P. exact Hf.
Qed.

End Top.

Section Corollaries.
Variable g : grammar.
Variable ptx : nat.
Variable buf : list rune.
Variable penv : nat -> nat -> bool.
Hypothesis Hg : good_grammar g.
Hypothesis Hbuf : good_buf buf.
Hypothesis Hsw : good_switches g.

Definition machine (memo inline : bool) (n r : nat) (st0 : mstate) : option mres :=
  entry g ptx buf penv (mk_opts true memo inline g) n r (reset st0).
Definition slot_ok (inline : bool) (r : nat) : Prop := o_inline (mk_opts true true inline g) r = false.

(** [parse_correct] for the options the generator computes; the inline table does not depend on the memo setting *)
Lemma machine_correct memo inline n r st0 rr :
  slot_ok inline r -> peg_parse g ptx buf penv n r = Some rr -> parse_spec g ptx buf penv (mk_opts true memo inline g) n r st0 rr.
Proof.
  exact (parse_correct g ptx buf penv Hg Hbuf (mk_opts true memo inline g) eq_refl (gen_asu_sound g ptx buf penv true memo inline) (Hsw inline) n r st0 rr).
Qed.

Lemma fold_upd_ok len evs : forall m, tok_ok len m -> evs_ok len evs -> tok_ok len (fold_left upd_max evs m).
Proof.
  induction evs as [|t evs IH]; intros m Hm He; cbn; [exact Hm|]. inv He. apply IH; auto.
  unfold upd_max. destruct (negb (tk_begin t =? tk_end t) && (tk_end m <? tk_end t))%bool; auto.
Qed.

(** what the semantics alone says of a parse: the error token lies in the input, and the forest of a success is one
    well-nested node for the entry rule over the consumed prefix, all of whose tokens lie in the input *)
Lemma parse_shape n r rr : peg_parse g ptx buf penv n r = Some rr ->
  tok_ok (length buf) (first_furthest (snd rr)) /\
  match fst rr with
  | Succ p f => exists kids, f = [Node r 0 p kids] /\ wf_forest 0 p f /\ Forall (inb 0 (length buf)) (flat f)
  | Fail => True
  end.
Proof.
  intros H. destruct (ev_ok g ptx buf penv n (EName r) 0 rr (Nat.le_0_l _) H) as [E W]. split.
  - apply fold_upd_ok; [unfold tok_ok, zero_tok; cbn; lia|exact E].
  - destruct rr as [[|p f] evs]; cbn [fst] in *; [exact I|]. destruct W as [W Wb].
    destruct (name_shape _ _ _ _ _ _ _ _ _ _ H) as (kids & Hf & _). exists kids. split; [exact Hf|]. split; [exact W|].
    eapply inb_weaken; [| |apply wf_forest_toks; exact W]; lia.
Qed.

(** ... and of its post-order, which is what the parser records (C03, C05): the entry rule over the consumed prefix comes
    last, and AST() rebuilds the derivation tree without its empty nodes *)
Lemma parse_tokens n r p f evs : peg_parse g ptx buf penv n r = Some (Succ p f, evs) ->
  exists kids, f = [Node r 0 p kids] /\ flat f = flat kids ++ [(r, (0, p))] /\ Forall (inb 0 (length buf)) (flat f) /\
    ast (flat f) = (if 0 =? p then None else Some (Rose (r, (0, p)) (prune_forest kids))) /\
    print_tree (flat f) = (if 0 =? p then [] else preorder 0 (Rose (r, (0, p)) (prune_forest kids))).
Proof.
  intros H. destruct (parse_shape n r _ H) as (_ & kids & -> & W & F). cbn [fst] in *. exists kids.
  pose proof (ast_of_parse r p kids W) as A.
  split; [reflexivity|]. split; [apply flat_node|]. split; [exact F|]. split; [exact A|].
  unfold print_tree. rewrite A. destruct (0 =? p); reflexivity.
Qed.

(** C01: verdict and consumed prefix are those of the PEG semantics *)
Lemma c01_verdict_prefix memo inline n r st0 rr :
  slot_ok inline r -> peg_parse g ptx buf penv n r = Some rr ->
  match fst rr with
  | Succ p _ => exists st', machine memo inline n r st0 = Some (Ret true st') /\ pos st' = p
  | Fail => exists st', machine memo inline n r st0 = Some (Ret false st')
  end.
Proof.
  intros Hs H. pose proof (machine_correct memo inline n r st0 rr Hs H) as P.
  destruct rr as [[|p f] evs]; cbn [parse_spec fst] in *.
  - destruct P as (st' & R & _). exists st'. exact R.
  - destruct P as (st' & R & P1 & _). exists st'. auto.
Qed.

(** C03: the recorded tokens are the post-order of the derivation forest, the last one is the entry
    rule spanning the consumed prefix, and every token lies inside the input *)
Lemma c03_tokens memo inline n r st0 p f evs :
  slot_ok inline r -> peg_parse g ptx buf penv n r = Some (Succ p f, evs) ->
  exists st' kids, machine memo inline n r st0 = Some (Ret true st') /\
    live st' = flat f /\ f = [Node r 0 p kids] /\
    live st' = flat kids ++ [(r, (0, p))] /\
    Forall (inb 0 (length buf)) (live st').
Proof.
  intros Hs H. destruct (machine_correct memo inline n r st0 _ Hs H) as (st' & R & _ & _ & L & _).
  destruct (parse_tokens n r p f evs H) as (kids & Hf & E & F & _).
  exists st', kids. rewrite L. repeat split; assumption.
Qed.

(** C04: Execute() on the recorded tokens runs the actions of the derivation, in order, each with the
    most recently completed capture *)
Lemma c04_execute memo inline n r st0 p f evs :
  slot_ok inline r -> peg_parse g ptx buf penv n r = Some (Succ p f, evs) ->
  exists st', machine memo inline n r st0 = Some (Ret true st') /\
    execute g ptx (live st') (0, 0) = fst (trace_forest g ptx f (0, 0)).
Proof.
  intros Hs H. destruct (c03_tokens memo inline n r st0 p f evs Hs H) as (st' & kids & R & L & _).
  exists st'. split; [exact R|]. rewrite L. apply execute_is_trace.
Qed.

(** C05: AST() is the derivation tree without its empty nodes, children in input order *)
Lemma c05_ast memo inline n r st0 p f evs :
  slot_ok inline r -> peg_parse g ptx buf penv n r = Some (Succ p f, evs) ->
  exists st' kids, machine memo inline n r st0 = Some (Ret true st') /\ f = [Node r 0 p kids] /\
    ast (live st') = (if 0 =? p then None else Some (Rose (r, (0, p)) (prune_forest kids))) /\
    print_tree (live st') = (if 0 =? p then [] else preorder 0 (Rose (r, (0, p)) (prune_forest kids))).
Proof.
  intros Hs H. destruct (machine_correct memo inline n r st0 _ Hs H) as (st' & R & _ & _ & L & _).
  destruct (parse_tokens n r p f evs H) as (kids & Hf & _ & _ & A & P).
  exists st', kids. rewrite L. repeat split; assumption.
Qed.

(** C11 (token part): the error token is the first non-empty token that reached the furthest offset
    during the attempt, and it lies inside the input *)
Lemma c11_error_token memo inline n r st0 evs :
  slot_ok inline r -> peg_parse g ptx buf penv n r = Some (Fail, evs) ->
  exists st', machine memo inline n r st0 = Some (Ret false st') /\
    maxtok st' = first_furthest evs /\ tok_ok (length buf) (maxtok st').
Proof.
  intros Hs H. destruct (machine_correct memo inline n r st0 _ Hs H) as (st' & R & M).
  exists st'. rewrite M. split; [exact R|]. split; [reflexivity|]. apply (parse_shape n r _ H).
Qed.

(** C13, C12 (width): whenever the semantics has a result the machine returns (never Crash: no read outside
    buffer + sentinel, no nil slot called), and every buffer offset it reports - the position, both ends of every
    token and of the error token - is at most the length of the input *)
Lemma machine_in_bounds memo inline n r st0 rr :
  slot_ok inline r -> peg_parse g ptx buf penv n r = Some rr ->
  exists b st', machine memo inline n r st0 = Some (Ret b st') /\
    (b = true -> pos st' <= length buf /\ Forall (inb 0 (length buf)) (live st')) /\
    (b = false -> tok_ok (length buf) (maxtok st')).
Proof.
  intros Hs H. destruct rr as [[|p f] evs].
  - destruct (c11_error_token memo inline n r st0 evs Hs H) as (st' & R & _ & T). exists false, st'.
    split; [exact R|]. split; [discriminate|]. auto.
  - destruct (machine_correct memo inline n r st0 _ Hs H) as (st' & R & P1 & Pb & L & _).
    destruct (parse_tokens n r p f evs H) as (kids & _ & _ & F & _).
    exists true, st'. split; [exact R|]. split; [|discriminate]. intros _. rewrite L. split; [lia|exact F].
Qed.

(** C01 (totality): on a well-formed grammar the semantics - hence the machine - has a result for
    every input and every entry rule whose slot holds a function: the parser always terminates
    with a verdict. *)
Lemma c01_total tab rank r rb :
  wf_b g tab rank = true -> nth_error g r = Some rb -> rb <> RNil ->
  exists n rr, peg_parse g ptx buf penv n r = Some rr.
Proof.
  intros Hwf Hr Hn. unfold peg_parse.
  apply (total_at g ptx buf penv tab rank Hwf (EName r) 0 (Nat.le_0_l _)).
  cbn [local_ok]. rewrite Hr. destruct rb; congruence.
Qed.

Lemma c01_total_machine tab rank memo inline r rb st0 :
  wf_b g tab rank = true -> nth_error g r = Some rb -> rb <> RNil -> slot_ok inline r ->
  exists n rr b st', peg_parse g ptx buf penv n r = Some rr /\
    machine memo inline n r st0 = Some (Ret b st') /\
    (b = true <-> exists p f, fst rr = Succ p f /\ pos st' = p).
Proof.
  intros Hwf Hr Hn Hs. destruct (c01_total tab rank r rb Hwf Hr Hn) as (n & rr & H).
  pose proof (c01_verdict_prefix memo inline n r st0 rr Hs H) as V.
  exists n, rr. destruct rr as [[|p f] evs]; cbn [fst] in V.
  - destruct V as (st' & R). exists false, st'. split; [exact H|]. split; [exact R|].
    split; [discriminate|]. intros (p & f & E & _). discriminate.
  - destruct V as (st' & R & P1). exists true, st'. split; [exact H|]. split; [exact R|].
    split; [intros _; exists p, f; auto|reflexivity].
Qed.

End Corollaries.

(** C02, C06, C12 (state part): two parsers - generated from the same tree or from two trees whose semantics agree on
    the result, as a tree and its -switch rewrite do - under any memo / inline settings and from any two earlier
    states return the same verdict, prefix and tokens, and the same error token when the attempts made the same
    events: each returns what its semantics says.  C02_inline_invisible, C06_memo_invisible and C12_reuse_is_fresh
    are the case of one tree, [g1 = g2], with the settings they name. *)
Lemma machines_agree g1 g2 ptx buf penv :
  good_grammar g1 -> good_switches g1 -> good_grammar g2 -> good_switches g2 -> good_buf buf ->
  forall memo1 inline1 memo2 inline2 n r st1 st2 res evs1 evs2,
    slot_ok g1 inline1 r -> slot_ok g2 inline2 r ->
    peg_parse g1 ptx buf penv n r = Some (res, evs1) -> peg_parse g2 ptx buf penv n r = Some (res, evs2) ->
    exists b s1 s2,
      machine g1 ptx buf penv memo1 inline1 n r st1 = Some (Ret b s1) /\
      machine g2 ptx buf penv memo2 inline2 n r st2 = Some (Ret b s2) /\
      (b = true -> pos s1 = pos s2 /\ live s1 = live s2) /\
      (b = false -> evs1 = evs2 -> maxtok s1 = maxtok s2).
Proof.
  intros Hg1 Hs1 Hg2 Hs2 Hb memo1 inline1 memo2 inline2 n r st1 st2 res evs1 evs2 S1 S2 H1 H2.
  pose proof (machine_correct g1 ptx buf penv Hg1 Hb Hs1 memo1 inline1 n r st1 _ S1 H1) as P1.
  pose proof (machine_correct g2 ptx buf penv Hg2 Hb Hs2 memo2 inline2 n r st2 _ S2 H2) as P2.
  destruct res as [|p f]; cbn [parse_spec] in *.
  - destruct P1 as (s1 & R1 & M1). destruct P2 as (s2 & R2 & M2). exists false, s1, s2.
    split; [exact R1|]. split; [exact R2|]. split; [discriminate|]. intros _ E. congruence.
  - destruct P1 as (s1 & R1 & A1 & _ & L1 & _). destruct P2 as (s2 & R2 & A2 & _ & L2 & _). exists true, s1, s2.
    split; [exact R1|]. split; [exact R2|]. split; [|discriminate]. intros _. split; congruence.
Qed.


Section Noast.
Variable g : grammar.
Variable ptx : nat.
Variable buf : list rune.
Variable penv : nat -> nat -> bool.
Hypothesis Hg : good_grammar g.
Hypothesis Hbuf : good_buf buf.
Hypothesis Hsw : good_switches g.
Hypothesis Hptx : forall rb, nth_error g ptx = Some rb -> rb = RNil.

Definition machine_noast (inline : bool) (n r : nat) (st0 : mstate) : option mres :=
  entry g ptx buf penv (mk_opts false false inline g) n r (reset st0).

(** C07: the -noast machine returns the verdict and prefix of the semantics; its inline action log is
    Execute's loop over all events of the attempt in time order, starting from the text register the
    parser object already had (a fresh object has (0,0), the empty text). *)
Theorem c07_noast inline n r st0 rr :
  o_inline (mk_opts false false inline g) r = false ->
  peg_parse g ptx buf penv n r = Some rr ->
  exists st', machine_noast inline n r st0 = Some (Ret (match fst rr with Fail => false | Succ _ _ => true end) st') /\
    alog st' = execute g ptx (snd rr) (text st0) /\
    match fst rr with Succ p _ => pos st' = p /\ p <= length buf | Fail => True end.
Proof.
  intros Hinl H. unfold peg_parse in H. set (o := mk_opts false false inline g).
  set (st := reset st0).
  assert (Hp : pos st <= length buf) by (unfold st, reset; cbn; lia).
  pose proof (simN g ptx buf penv o eq_refl Hg (Hsw inline) (gen_asu_sound g ptx buf penv false false inline) Hbuf Hptx n (EName r) false false st rr Hp eq_refl I
                   (SimNoast.flag_ok_false g buf o (EName r) false st) H) as (st' & R & T & L & P).
  destruct n as [|n]; [discriminate|].
  exists st'. change (machine_noast inline (S n) r st0) with (entry g ptx buf penv o (S n) r st).
  rewrite (entry_run g ptx buf penv o n r st _ H Hinl). split; [exact R|]. split; [exact L|exact P].
Qed.

End Noast.
