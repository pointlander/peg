(** Go rejects a variable that is declared and not used.  Every position / tokenIndex variable the
    emitted code declares is used later in the same statement list (or in a block nested in it):
    restored, handed to memoize, or handed to add.  The only construct whose use depends on the shape of
    the tree is the ordered choice: it restores the saved position between alternatives, so it needs
    two of them ([alt2]).  The front end builds no shorter choice (Reader/BuiltAlt2.v); the end of this
    file shows that the -switch pass and the linker keep that ([optimize_alt2], [link_alt2]). *)
From PegV Require Import Base.Tac Spec.Syntax Model.Optimize Model.Emit Model.Link.
From PegV Require Import Proofs.EmitWF Proofs.OptSound Proofs.OptSwok Proofs.LinkProofs.
From PegV Require Export Model.Premises.
Local Open Scope nat_scope.

Fixpoint uses1 (x : code) : list (bool * nat) :=
  match x with
  | KRestore n | KMemo n => [(false, n)]
  | KUseP n => [(true, n)]
  | KBlock b => flat_map uses1 b
  | KSwitch cs d => flat_map (flat_map uses1) cs ++ flat_map uses1 d
  | _ => []
  end.
Definition uses (c : list code) : list (bool * nat) := flat_map uses1 c.

Definition used_in (k : bool * nat) (l : list (bool * nat)) : bool :=
  existsb (fun y => Bool.eqb (fst k) (fst y) && Nat.eqb (snd k) (snd y)) l.
Definition decl_ok (y : code) (rest : list code) : bool :=
  match y with
  | KSave n => used_in (false, n) (uses rest)
  | KSaveP n => used_in (true, n) (uses rest)
  | _ => true
  end.
Definition du_list (f : code -> bool) : list code -> bool :=
  fix go (l : list code) : bool :=
    match l with
    | [] => true
    | y :: l' => decl_ok y l' && f y && go l'
    end.
Fixpoint du1 (x : code) : bool :=
  match x with
  | KBlock b => du_list (fun y => du1 y) b
  | KSwitch cs d => forallb (fun k => du_list (fun y => du1 y) k) cs && du_list (fun y => du1 y) d
  | _ => true
  end.
Definition du (c : list code) : bool := du_list (fun y => du1 y) c.

Lemma uses_app a b : uses (a ++ b) = uses a ++ uses b.
Proof. unfold uses. apply flat_map_app. Qed.

Lemma used_in_app k a b : used_in k (a ++ b) = used_in k a || used_in k b.
Proof. unfold used_in. apply existsb_app. Qed.

Lemma used_in_here b n l : used_in (b, n) ((b, n) :: l) = true.
Proof. unfold used_in. cbn [existsb fst snd]. rewrite eqb_reflx, Nat.eqb_refl. reflexivity. Qed.

Lemma decl_ok_app y a b : decl_ok y (a ++ b) = decl_ok y a || decl_ok y b.
Proof. destruct y; cbn [decl_ok]; try reflexivity; rewrite uses_app; apply used_in_app. Qed.

Lemma du_app a : forall b, du a = true -> du b = true -> du (a ++ b) = true.
Proof.
  unfold du. induction a as [|y a IH]; intros b Ha Hb; [exact Hb|]. cbn [app du_list] in *.
  apply andb_true_iff in Ha as [Ha Ha2]. apply andb_true_iff in Ha as [Ha0 Ha1].
  rewrite decl_ok_app, Ha0, Ha1. cbn [andb orb]. apply IH; auto.
Qed.

Lemma du_plain c : nodecl c = true -> forallb du1 c = true -> du c = true.
Proof.
  unfold du, nodecl. induction c as [|y c IH]; intros Hn Hd; [reflexivity|]. cbn [forallb du_list] in *.
  apply andb_true_iff in Hn as [Hn0 Hn1]. apply andb_true_iff in Hd as [Hd0 Hd1].
  rewrite Hd0, (IH Hn1 Hd1). destruct y; try reflexivity; discriminate.
Qed.

Lemma du_forall c : du c = true -> forallb du1 c = true.
Proof.
  unfold du. induction c as [|y c IH]; intros H; [reflexivity|]. cbn [du_list forallb] in *.
  apply andb_true_iff in H as [H H2]. apply andb_true_iff in H as [_ H1]. rewrite H1, (IH H2). reflexivity.
Qed.

Section Use.
Variable g : grammar.
Variable ast : bool.
Variable inl asu used : nat -> bool.
Hypothesis Hg : grammar_alt2 g.
Notation emit := (emit g ast inl asu used).
Notation lbl_if := (lbl_if used).

Definition fine (c : list code) : Prop := nodecl c = true /\ du c = true.

Lemma fine_nil : fine [].  Proof. split; reflexivity. Qed.
Lemma fine_app a b : fine a -> fine b -> fine (a ++ b).
Proof. intros [A1 A2] [B1 B2]. split; [unfold nodecl in *; rewrite forallb_app, A1, B1; reflexivity|apply du_app; auto]. Qed.
Lemma fine_lbl_if n : fine (lbl_if n).
Proof. unfold Emit.lbl_if. destruct (used n); split; reflexivity. Qed.
Lemma fine_atoms c : nodecl c = true -> forallb (fun x => match x with KBlock _ | KSwitch _ _ => false | _ => true end) c = true -> fine c.
Proof.
  intros Hn Ha. split; [exact Hn|]. apply du_plain; [exact Hn|].
  apply forallb_forall. intros x Hx. rewrite forallb_forall in Ha. specialize (Ha x Hx). destruct x; try reflexivity; discriminate.
Qed.

Lemma fine_block d body tail : fine body -> fine tail -> du1 d = true -> decl_ok d tail = true ->
  fine [KBlock (d :: body ++ tail)].
Proof.
  intros Hb Ht Hd Hu. split; [reflexivity|]. unfold du. cbn [du_list decl_ok du1]. rewrite andb_true_r. cbn [andb].
  fold (du (body ++ tail)). rewrite decl_ok_app, Hu, orb_true_r, Hd. cbn [andb].
  apply du_app; [apply Hb|apply Ht].
Qed.
Lemma decl_ok_restore n : decl_ok (KSave n) [KRestore n] = true.  Proof. apply used_in_here. Qed.
Lemma decl_ok_usep n : decl_ok (KSaveP n) [KUseP n] = true.  Proof. apply used_in_here. Qed.

(** the tail that Not, Query, Star, Plus and the alternatives of a choice share, and the block of the first four *)
Lemma fine_leave s t k c : fine c -> fine ([KJmp t] ++ lbl_if k ++ [KRestore s] ++ c).
Proof.
  intros Hc. apply (fine_app [KJmp t]); [split; reflexivity|]. apply fine_app; [apply fine_lbl_if|].
  apply (fine_app [KRestore s]); [split; reflexivity|exact Hc].
Qed.
Lemma fine_frame s t c : fine c -> fine [KBlock (KSave s :: c ++ [KJmp t] ++ lbl_if s ++ [KRestore s])].
Proof.
  intros Hc. apply fine_block; [exact Hc|apply (fine_leave s t s []), fine_nil|reflexivity|].
  rewrite !decl_ok_app, decl_ok_restore, !orb_true_r. reflexivity.
Qed.

Lemma fine_bind (r : res) (K : list code -> nat -> bool -> res) :
  fine (fst (fst r)) -> (forall c l b, fine c -> fine (fst (fst (K c l b)))) ->
  fine (fst (fst (let '(c, l, b) := r in K c l b))).
Proof. destruct r as [[c l] b]. intros F H. apply H, F. Qed.

Definition ffine (f : expr -> nat -> bool -> bool -> nat -> res) : Prop :=
  forall e ko pd mk l, alt2 e = true -> fine (fst (fst (f e ko pd mk l))).

Lemma seq_fine f : ffine f -> forall es ko pd mk l ll, forallb alt2 es = true -> fine (fst (fst (seq_emit f es ko pd mk l ll))).
Proof.
  intros Hf. induction es as [|x es IH]; intros ko pd mk l ll Ha; cbn [seq_emit]; [apply fine_nil|].
  cbn [forallb] in Ha. apply andb_true_iff in Ha as [Hx Ha].
  apply fine_bind; [apply Hf, Hx|]. intros c l1 ll1 Fc. apply fine_bind; [apply IH, Ha|]. intros c' l2 ll2 Fc'.
  apply fine_app; assumption.
Qed.

Lemma alt_fine f : ffine f -> forall es ko ok l, forallb alt2 es = true ->
  fine (fst (alt_emit used f es ko ok l)) /\ (2 <= length es -> decl_ok (KSave ok) (fst (alt_emit used f es ko ok l)) = true).
Proof.
  intros Hf. induction es as [|x es IH]; intros ko ok l Ha; cbn [alt_emit]; [split; [apply fine_nil|cbn; lia]|].
  cbn [forallb] in Ha. apply andb_true_iff in Ha as [Hx Ha].
  destruct es as [|y es].
  - pose proof (Hf x ko false false l Hx) as Fx. destruct (f x ko false false l) as [[c l1] ll1].
    split; [exact Fx|cbn; lia].
  - pose proof (Hf x l false false (S l) Hx) as Fx. destruct (f x l false false (S l)) as [[c l1] ll1].
    destruct (IH ko ok l1 Ha) as [Fr _]. destruct (alt_emit used f (y :: es) ko ok l1) as [c' l2]. cbn [fst] in *.
    split; [apply fine_app; [exact Fx|apply fine_leave, Fr]|].
    intros _. rewrite !decl_ok_app, decl_ok_restore, !orb_true_r. reflexivity.
Qed.

Lemma cases_fine f : ffine f -> forall cs ko l, forallb (fun c => alt2 (snd c)) cs = true ->
  forallb (fun k => nodecl k && du k) (fst (cases_emit f cs ko l)) = true.
Proof.
  intros Hf. induction cs as [|[keys b] cs IH]; intros ko l Ha; cbn [cases_emit]; [reflexivity|].
  cbn [forallb snd] in Ha. apply andb_true_iff in Ha as [Hx Ha].
  pose proof (Hf b ko true (Nat.ltb 1 (length keys)) l Hx) as Fx.
  destruct (f b ko true (Nat.ltb 1 (length keys)) l) as [[c l1] ll]. cbn [fst] in Fx.
  specialize (IH ko l1 Ha). destruct (cases_emit f cs ko l1) as [rest l2]. cbn [fst forallb] in *.
  rewrite IH, andb_true_r.
  assert (Fb : fine (c ++ (if ll then [KBrk] else []))) by (apply fine_app; [exact Fx|destruct ll; split; reflexivity]).
  destruct Fb as [B1 B2]. rewrite B1, B2. reflexivity.
Qed.

Lemma ipush_fine f : ffine f -> forall r ko pd mk l, fine (fst (fst (ipush_emit g f r ko pd mk l))).
Proof.
  intros Hf r ko pd mk l. unfold ipush_emit.
  assert (B : forall c, fine c -> fine [KBlock (KSaveP l :: c ++ [KUseP l])]).
  { intros c Fc. apply fine_block; [exact Fc|split; reflexivity|reflexivity|apply decl_ok_usep]. }
  destruct (nth_error g r) as [[b|k|]|] eqn:E; [|split; reflexivity|exact (B [] fine_nil)..].
  apply fine_bind; [apply Hf, (Hg _ _ E)|]. intros c l1 _ Fc. apply B, Fc.
Qed.

Lemma fine_switch cls d : forallb (fun k => nodecl k && du k) cls = true -> fine d -> fine [KBlock [KSwitch cls d]].
Proof.
  intros Hc [D1 D2]. split; [reflexivity|]. unfold du. cbn [du_list decl_ok du1]. rewrite !andb_true_r. cbn [andb].
  fold (du d). rewrite D2, andb_true_r. apply forallb_forall. intros k Hk. rewrite forallb_forall in Hc.
  specialize (Hc k Hk). apply andb_true_iff in Hc as [_ Hc]. exact Hc.
Qed.

Lemma emit_fine n : ffine (emit n).
Proof.
  induction n as [|n IH]; intros e ko pd mk l Ha; [apply fine_nil|].
  destruct e; cbn [Emit.emit alt2] in *; try (split; reflexivity).
  - destruct pd; split; reflexivity.
  - destruct (pd && negb mk)%bool; split; reflexivity.
  - destruct pd; split; reflexivity.
  - (* EName *) destruct (inl r); [|destruct (asu r); split; reflexivity].
    apply fine_bind; [apply ipush_fine, IH|]. intros c l1 _ Fc. exact Fc.
  - apply seq_fine; auto.
  - (* EAlt *) apply andb_true_iff in Ha as [Hlen Ha]. apply Nat.leb_le in Hlen.
    destruct (alt_fine _ IH es ko l (S l) Ha) as [F U]. specialize (U Hlen).
    destruct (alt_emit used (emit n) es ko l (S l)) as [c l1]. cbn [fst] in *.
    apply fine_app; [|apply fine_lbl_if]. exact (fine_block (KSave l) [] c fine_nil F eq_refl U).
  - (* EAnd *) apply fine_bind; [apply IH, Ha|]. intros c l1 _ Fc.
    apply (fine_block (KSave l) c [KRestore l]); [exact Fc|split; reflexivity|reflexivity|apply decl_ok_restore].
  - (* ENot *) apply fine_bind; [apply IH, Ha|]. intros c l1 _ Fc. apply fine_frame, Fc.
  - (* EQuery *) apply fine_bind; [apply IH, Ha|]. intros c l1 _ Fc. apply fine_app; [apply fine_frame, Fc|apply fine_lbl_if].
  - (* EStar *) apply fine_bind; [apply IH, Ha|]. intros c l1 _ Fc. apply fine_app; [apply fine_lbl_if|apply fine_frame, Fc].
  - (* EPlus *) apply fine_bind; [apply IH, Ha|]. intros c1 l1 _ F1. apply fine_bind; [apply IH, Ha|]. intros c2 l2 _ F2.
    apply fine_app; [exact F1|]. apply fine_app; [apply fine_lbl_if|apply fine_frame, F2].
  - (* EPush *) apply fine_bind; [apply IH, Ha|]. intros c l1 _ Fc.
    apply fine_block; [exact Fc|destruct ast; split; reflexivity|reflexivity|destruct ast; apply used_in_here].
  - (* ESwitch *) apply andb_true_iff in Ha as [Hc Hd].
    pose proof (cases_fine _ IH cs ko (S l) Hc) as Fc. destruct (cases_emit (emit n) cs ko (S l)) as [cls l1]. cbn [fst] in Fc.
    apply fine_bind; [apply IH, Hd|]. intros cd l2 lld Fd. apply fine_app; [|apply fine_lbl_if].
    apply fine_switch; [exact Fc|]. apply fine_app; [exact Fd|destruct lld; split; reflexivity].
Qed.

(** a whole rule function: the position saved on entry is handed to memoize or restored on failure *)
Theorem rule_emit_uses n r ko : du (fst (rule_emit g ast inl asu used n r ko)) = true.
Proof.
  unfold rule_emit. pose proof (ipush_fine _ (emit_fine n) r ko false false (S ko)) as [_ F].
  destruct (ipush_emit g (emit n) r ko false false (S ko)) as [[c l1] ll]. cbn [fst] in *.
  assert (S : forall tail, du tail = true -> decl_ok (KSave ko) tail = true -> du (KSave ko :: c ++ tail) = true).
  { intros tail Ht Hu. unfold du. cbn [du_list du1]. rewrite decl_ok_app, Hu, orb_true_r. apply du_app; assumption. }
  destruct ast, (used ko); cbn [orb app].
  - change (du (KSave ko :: c ++ [KMemo ko; KSt; KLbl ko; KMemo ko; KRestore ko; KSt]) = true).
    apply S; [reflexivity|apply used_in_here].
  - change (du (KSave ko :: c ++ [KMemo ko; KSt]) = true). apply S; [reflexivity|apply used_in_here].
  - apply (S [KSt; KLbl ko; KRestore ko; KSt]); [reflexivity|apply used_in_here].
  - apply du_app; [exact F|reflexivity].
Qed.

End Use.

Theorem emit_all_uses g ast inline asu undef :
  grammar_alt2 g ->
  Forall (fun o => match o with Some F => du F = true | None => True end) (emit_all g ast inline asu undef).
Proof.
  intros Hg. apply Forall_forall. intros [F|] H; [|exact I].
  apply pass_fn in H as (r & l & ->). apply rule_emit_uses. exact Hg.
Qed.

Lemma alt2_opt T : forall e, alt2 e = true -> alt2 (opt T e) = true.
Proof.
  induction e using expr_ind2; cbn [alt2]; intros Ha; try (cbn [opt alt2]; auto; fail).
  - cbn [opt alt2]. apply forallb_forall. intros y Hy. apply in_map_iff in Hy as (x & <- & Hx).
    rewrite Forall_forall in H. rewrite forallb_forall in Ha. apply H; auto.
  - apply andb_true_iff in Ha as [Hlen Ha]. rewrite forallb_forall in Ha. rewrite Forall_forall in H.
    assert (Hpiece : forall e', (exists x, In x es /\ e' = opt T x) -> alt2 e' = true) by (intros e' (x & Hx & ->); apply H; auto).
    apply opt_alt_shape.
    + cbn [alt2]. rewrite map_length, Hlen. apply forallb_forall. intros y Hy. apply in_map_iff in Hy as (x & <- & Hx). eauto.
    + intros os cs d _ Hos Hcs Hd.
      assert (Hsw : alt2 (ESwitch cs d) = true).
      { cbn [alt2]. rewrite (Hpiece d Hd), andb_true_r. apply forallb_forall. intros kc Hc.
        destruct (Hcs kc Hc) as (x & Hx & -> & _). apply H; auto. }
      destruct os as [|o1 os]; [exact Hsw|].
      cbn [alt2]. rewrite app_length. cbn [length]. replace (Nat.leb 2 (S (length os) + 1)) with true by (symmetry; apply Nat.leb_le; lia).
      cbn [andb]. rewrite forallb_app. apply andb_true_iff. split; [|cbn [forallb]; rewrite Hsw; reflexivity].
      apply forallb_forall. intros y Hy. exact (Hpiece y (Hos y Hy)).
Qed.

Theorem optimize_alt2 g : grammar_alt2 g -> grammar_alt2 (optimize g).
Proof.
  intros Hg r b' Hb'. destruct (optimize_nth g r b' Hb') as (b & Hb & [->|(T & _ & ->)]); [|apply alt2_opt]; exact (Hg r b Hb).
Qed.

Lemma grammar_alt2_b_ok g : grammar_alt2_b g = true -> grammar_alt2 g.
Proof.
  intros H r b Hr. unfold grammar_alt2_b in H. rewrite forallb_forall in H. apply (H (RBody b)). eapply nth_error_In; eauto.
Qed.

(** Compile's first passes keep the shape of every expression, so the linked tree has the property
    when the tree the front end built has it *)
Lemma link_rules_alt2 nuser es : Forall (fun e => forall st, alt2 (fst (link_e nuser e st)) = alt2 e) es ->
  forall st, forallb alt2 (fst (link_rules nuser es st)) = forallb alt2 es /\ length (fst (link_rules nuser es st)) = length es.
Proof.
  induction 1 as [|x es Hx _ IH]; intros st; [split; reflexivity|]. cbn [link_rules].
  specialize (Hx st). destruct (link_e nuser x st) as [x' st1]. specialize (IH st1).
  destruct (link_rules nuser es st1) as [l'' st2]. cbn [fst forallb length] in *.
  destruct IH as [I1 I2]. rewrite Hx, I1, I2. split; reflexivity.
Qed.

Lemma link_e_alt2 nuser : forall e st, alt2 (fst (link_e nuser e st)) = alt2 e.
Proof.
  induction e using expr_ind2; intros st.
  (* the operators with one operand, but for the capture: the 11th to the 15th constructor of [expr] *)
  11-15: (cbn [link_e]; specialize (IHe st); destruct (link_e nuser e st) as [e' st']; exact IHe).
  all: try reflexivity.
  - cbn [link_e]. destruct (r <? nuser); [reflexivity|]. destruct (lookup_u (l_undef st) r); reflexivity.
  - rewrite link_e_seq. destruct (link_rules_alt2 nuser es H st) as [G _]. destruct (link_rules nuser es st). exact G.
  - rewrite link_e_alt. destruct (link_rules_alt2 nuser es H st) as [G1 G2]. destruct (link_rules nuser es st).
    cbn [fst alt2] in *. rewrite G1, G2. reflexivity.
  - cbn [link_e]. set (st1 := match l_ptx st with Some _ => st | None => _ end). specialize (IHe st1).
    destruct (link_e nuser e st1) as [e' st']. exact IHe.
Qed.

Theorem link_alt2 bodies g ptx acts :
  link bodies = (g, ptx, acts) -> forallb alt2 bodies = true -> grammar_alt2 g.
Proof.
  intros H Ha. destruct (link_inv _ _ _ _ H) as (bs & st & E & -> & _ & _ & _ & _ & _ & J4).
  destruct (link_rules_alt2 (length bodies) bodies) with (st := mkl [] [] None []) as [Hbs _].
  { apply Forall_forall. intros e _. apply link_e_alt2. }
  rewrite E in Hbs. cbn [fst] in Hbs. rewrite Ha in Hbs.
  intros r b Hr. apply nth_error_In in Hr. apply in_app_or in Hr as [Hr|Hr].
  - apply in_map_iff in Hr as (x & Ex & Hx). inv Ex. rewrite forallb_forall in Hbs. apply Hbs. exact Hx.
  - destruct (J4 _ Hr).
Qed.
