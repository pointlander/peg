(** Proofs that the interval-list model of set/set.go refines mathematical sets of integers. *)
From PegV Require Import Base.Tac Model.SetImpl.
Open Scope Z_scope.

(** the interval equations below are decided by [lia] splitting on the unknown boolean [mem l x]: ZifyBool's
    case split (switched off in Base/Tac.v) is on from here to the end of the file *)
Ltac Zify.zify_post_hook ::= ZifyBool.elim_bool_cstr.

Definition inode (n : Z * Z) (x : Z) : bool := (fst n <=? x) && (x <=? snd n).
Definition mem (l : iset) (x : Z) : bool := existsb (fun n => inode n x) l.

(** representation invariant: sorted, disjoint, non-adjacent, non-empty nodes, all >= lo *)
Fixpoint inv_from (lo : Z) (l : iset) : Prop :=
  match l with
  | [] => True
  | (b, e) :: l' => lo <= b /\ b <= e /\ inv_from (e + 2) l'
  end.
Definition Inv (l : iset) : Prop := inv_from 0 l.

Lemma mem_cons b e l x : mem ((b, e) :: l) x = ((b <=? x) && (x <=? e)) || mem l x.
Proof. reflexivity. Qed.
Lemma mem_nil x : mem [] x = false.
Proof. reflexivity. Qed.
Lemma mem_exists l x : mem l x = true <-> exists n, In n l /\ inode n x = true.
Proof. apply existsb_exists. Qed.
Global Opaque mem.

(** [mem] is opaque from here on: [lia] takes [mem l x] for an unknown boolean, and what it needs to
    know of [mem] is put in the context first ([mem_cons], [mem_below]). *)

Lemma inv_from_weaken lo lo' l : lo' <= lo -> inv_from lo l -> inv_from lo' l.
Proof. destruct l as [|[b e] l]; cbn; intros; intuition lia. Qed.

Lemma mem_below lo l x : inv_from lo l -> x < lo -> mem l x = false.
Proof.
  revert lo; induction l as [|[b e] l IH]; cbn [inv_from]; intros lo H Hx; [reflexivity|].
  destruct H as (H1 & H2 & H3). rewrite mem_cons, (IH (e + 2)) by (auto; lia). lia.
Qed.

Lemma add_range_inv l : forall lo b e, inv_from lo l -> lo <= b -> b <= e -> inv_from lo (add_range l b e).
Proof.
  induction l as [|[nb ne] l IH]; cbn [inv_from add_range]; intros lo b e H Hlo Hbe.
  - lia.
  - destruct H as (H1 & H2 & H3).
    destruct (Z.ltb_spec ne (b - 1)).
    + cbn [inv_from]. split; [exact H1|]. split; [exact H2|]. apply IH; auto; lia.
    + destruct (Z.ltb_spec e (nb - 1)).
      * cbn [inv_from]. repeat split; auto; lia.
      * apply (inv_from_weaken _ lo) in H3; [|lia]. apply IH; auto; lia.
Qed.

Lemma add_range_mem l : forall lo b e x, inv_from lo l -> b <= e ->
  mem (add_range l b e) x = mem l x || ((b <=? x) && (x <=? e)).
Proof.
  induction l as [|[nb ne] l IH]; cbn [inv_from add_range]; intros lo b e x H Hbe.
  - rewrite mem_cons, mem_nil. apply orb_comm.
  - destruct H as (H1 & H2 & H3).
    destruct (Z.ltb_spec ne (b - 1)).
    + rewrite !mem_cons, (IH (ne + 2)) by auto. apply orb_assoc.
    + destruct (Z.ltb_spec e (nb - 1)).
      * rewrite !mem_cons. apply orb_comm.
      * rewrite (IH (ne + 2)), mem_cons by (auto; lia). clear IH H3. lia.
Qed.

Lemma has_spec l : forall lo x, inv_from lo l -> has l x = mem l x.
Proof.
  induction l as [|[nb ne] l IH]; cbn [inv_from has]; intros lo x H; [reflexivity|].
  destruct H as (H1 & H2 & H3). rewrite mem_cons.
  destruct (Z.ltb_spec ne x).
  - rewrite (IH (ne + 2)) by auto. lia.
  - rewrite (mem_below (ne + 2) l x) by (auto; lia). lia.
Qed.

Lemma zrange_f_in n : forall b x, In x (zrange_f n b) <-> b <= x < b + Z.of_nat n.
Proof.
  induction n as [|n IH]; intros b x; cbn [zrange_f In].
  - lia.
  - rewrite IH. lia.
Qed.

Lemma zrange_in b e x : In x (zrange b e) <-> b <= x <= e.
Proof. unfold zrange. rewrite zrange_f_in. lia. Qed.

Lemma zrange_f_length n b : length (zrange_f n b) = n.
Proof. revert b; induction n; cbn; auto. Qed.

Lemma zrange_length b e : b <= e -> Z.of_nat (length (zrange b e)) = e - b + 1.
Proof. intros. unfold zrange. rewrite zrange_f_length. lia. Qed.

Lemma elements_mem l x : In x (elements l) <-> mem l x = true.
Proof.
  unfold elements. rewrite in_flat_map, mem_exists.
  split; intros (n & Hn & H); exists n; split; auto.
  - apply zrange_in in H. unfold inode. lia.
  - apply zrange_in. unfold inode in H. lia.
Qed.

Lemma len_spec l : forall lo, inv_from lo l -> len l = Z.of_nat (length (elements l)).
Proof.
  induction l as [|[nb ne] l IH]; cbn; intros lo H; [reflexivity|].
  destruct H as (H1 & H2 & H3).
  rewrite app_length, Nat2Z.inj_add, zrange_length, (IH (ne + 2)) by auto. reflexivity.
Qed.

Inductive ascending_from : Z -> list Z -> Prop :=
| asc_nil lo : ascending_from lo []
| asc_cons lo x l : lo <= x -> ascending_from (x + 1) l -> ascending_from lo (x :: l).

Lemma ascending_weaken lo lo' l : lo' <= lo -> ascending_from lo l -> ascending_from lo' l.
Proof. intros Hle H; destruct H; constructor; auto; lia. Qed.

Lemma zrange_f_asc n : forall b l, ascending_from (b + Z.of_nat n) l -> ascending_from b (zrange_f n b ++ l).
Proof.
  induction n as [|n IH]; intros b l H; cbn [zrange_f app].
  - eapply ascending_weaken; [|exact H]. lia.
  - constructor; [lia|]. apply IH. eapply ascending_weaken; [|exact H]. lia.
Qed.

Lemma elements_ascending l : forall lo, inv_from lo l -> ascending_from lo (elements l).
Proof.
  induction l as [|[nb ne] l IH]; cbn; intros lo H; [constructor|].
  destruct H as (H1 & H2 & H3).
  apply (ascending_weaken nb); [exact H1|]. apply zrange_f_asc.
  eapply ascending_weaken; [|exact (IH _ H3)]. lia.
Qed.

Lemma fold_add_spec a : forall lo acc, inv_from lo acc -> inv_from lo a ->
  let r := fold_left (fun acc n => add_range acc (fst n) (snd n)) a acc in
  inv_from lo r /\ forall x, mem r x = mem acc x || mem a x.
Proof.
  induction a as [|[nb ne] a IH]; cbn [fold_left inv_from fst snd]; intros lo acc Hacc Ha.
  - split; [exact Hacc|]. intros x. rewrite mem_nil. symmetry. apply orb_false_r.
  - destruct Ha as (H1 & H2 & H3). apply (inv_from_weaken _ lo) in H3; [|lia].
    destruct (IH lo _ (add_range_inv acc lo nb ne Hacc H1 H2) H3) as [I M].
    split; [exact I|]. intros x. rewrite M, (add_range_mem _ lo), mem_cons by assumption. symmetry. apply orb_assoc.
Qed.

Lemma union_inv s a : Inv s -> Inv a -> Inv (union s a).
Proof. apply fold_add_spec. Qed.

Lemma union_mem s a x : Inv s -> Inv a -> mem (union s a) x = mem s x || mem a x.
Proof. intros Hs Ha. apply (fold_add_spec a 0 s Hs Ha). Qed.

(** what the loop does with the gap [pre, nb) in front of a node (empty when [nb <= pre]) *)
Lemma add_gap acc pre nb x : Inv acc -> 0 <= pre ->
  let acc' := if pre <? nb then add_range acc pre (nb - 1) else acc in
  Inv acc' /\ mem acc' x = mem acc x || ((pre <=? x) && (x <? nb)).
Proof.
  intros Hacc Hpre. destruct (Z.ltb_spec pre nb); cbn zeta.
  - split; [apply add_range_inv; auto; lia|]. rewrite (add_range_mem _ 0) by (auto; lia). lia.
  - split; [exact Hacc|]. lia.
Qed.

Lemma compl_loop_spec l : forall pre lim acc x,
  Inv acc -> inv_from pre l -> 0 <= pre -> pre <= lim ->
  Inv (compl_loop l pre lim acc) /\
  mem (compl_loop l pre lim acc) x =
    mem acc x || ((pre <=? x) && (x <=? lim) && negb (mem l x)).
Proof.
  induction l as [|[nb ne] l IH]; cbn [compl_loop]; intros pre lim acc x Hacc Hl Hpre Hlim.
  - split; [apply add_range_inv; auto|].
    rewrite (add_range_mem _ 0), mem_nil by auto. clear. lia.
  - destruct Hl as (H1 & H2 & H3). pose proof (mem_below _ _ x H3) as Hlow. rewrite mem_cons.
    destruct (Z.ltb_spec lim nb) as [Lb|Lb].
    + split; [apply add_range_inv; auto|].
      rewrite (add_range_mem _ 0) by auto. clear - H2 Lb Hlow. lia.
    + destruct (add_gap acc pre nb x Hacc Hpre) as [Hacc' Hm'].
      destruct (Z.leb_spec lim ne) as [Le|Le].
      * split; [exact Hacc'|]. rewrite Hm'. clear - H1 H2 Lb Le Hlow. lia.
      * apply (inv_from_weaken _ (ne + 1)) in H3; [|clear; lia].
        destruct (IH (ne + 1) lim _ x Hacc' H3) as (IH1 & IH2); [clear - Hpre H1 H2; lia | clear - Le; lia |].
        split; [exact IH1|]. rewrite IH2, Hm'. clear - H1 H2 Lb Le Hlow. lia.
Qed.

Lemma complement_inv l lim : Inv l -> 0 <= lim -> Inv (complement l lim).
Proof. intros. apply (compl_loop_spec l 0 lim [] 0); cbn; auto; lia. Qed.

Lemma complement_mem l lim x : Inv l -> 0 <= lim ->
  mem (complement l lim) x = (0 <=? x) && (x <=? lim) && negb (mem l x).
Proof. intros. unfold complement. destruct (compl_loop_spec l 0 lim [] x) as [_ E]; cbn; auto; lia. Qed.

Lemma inv_valid lo l n : inv_from lo l -> In n l -> fst n <= snd n.
Proof.
  revert lo; induction l as [|[b e] l IH]; intros lo H Hn; [destruct Hn|].
  destruct H as (_ & H & H'), Hn as [<-|Hn]; [exact H | exact (IH _ H' Hn)].
Qed.

Lemma half_intersects_iff s b :
  half_intersects s b = true <-> exists n m, In n s /\ In m b /\ node_hits n m = true.
Proof.
  unfold half_intersects. rewrite existsb_exists. split.
  - intros (n & Hn & H). apply existsb_exists in H as (m & Hm & H). eauto.
  - intros (n & m & Hn & Hm & H). exists n. split; [exact Hn|]. apply existsb_exists. eauto.
Qed.

Lemma intersects_iff s b :
  intersects s b = true <->
  exists n m, In n s /\ In m b /\ (node_hits n m = true \/ node_hits m n = true).
Proof.
  unfold intersects. rewrite orb_true_iff, !half_intersects_iff. split.
  - intros [(n & m & H)|(m & n & H)]; exists n, m; tauto.
  - intros (n & m & Hn & Hm & [H|H]); [left; exists n, m | right; exists m, n]; auto.
Qed.

Lemma node_hits_meet n m : fst n <= snd n -> fst m <= snd m ->
  (node_hits n m = true \/ node_hits m n = true <-> exists x, inode n x = true /\ inode m x = true).
Proof.
  unfold node_hits, inode. intros Vn Vm. split.
  - intros H. exists (Z.max (fst n) (fst m)). lia.
  - intros (x & H). lia.
Qed.

Lemma intersects_spec s b : Inv s -> Inv b ->
  (intersects s b = true <-> exists x, mem s x = true /\ mem b x = true).
Proof.
  intros Hs Hb. rewrite intersects_iff. split.
  - intros (n & m & Hn & Hm & H).
    apply node_hits_meet in H as (x & H1 & H2); [|exact (inv_valid _ _ _ Hs Hn)|exact (inv_valid _ _ _ Hb Hm)].
    exists x. rewrite !mem_exists. split; [exists n | exists m]; auto.
  - intros (x & H1 & H2). apply mem_exists in H1 as (n & Hn & H1), H2 as (m & Hm & H2).
    exists n, m. split; [exact Hn|]. split; [exact Hm|].
    apply node_hits_meet; [exact (inv_valid _ _ _ Hs Hn) | exact (inv_valid _ _ _ Hb Hm) | exists x; auto].
Qed.

(** the first node of a representation is read off its members: the least member, and the first gap *)
Lemma head_le lo b1 e1 a b2 e2 b :
  inv_from lo ((b1, e1) :: a) -> inv_from lo ((b2, e2) :: b) ->
  (forall x, mem ((b1, e1) :: a) x = mem ((b2, e2) :: b) x) -> b2 <= b1 /\ (b2 = b1 -> e2 <= e1).
Proof.
  intros (A1 & A2 & A3) (B1 & B2 & B3) E. split.
  - specialize (E b1). rewrite !mem_cons in E. pose proof (mem_below _ _ b1 B3). lia.
  - intros ->. specialize (E (e1 + 1)). rewrite !mem_cons in E. pose proof (mem_below _ _ (e1 + 1) A3). lia.
Qed.

Lemma canonical a : forall lo b, inv_from lo a -> inv_from lo b ->
  (forall x, mem a x = mem b x) -> a = b.
Proof.
  induction a as [|[b1 e1] a IH]; intros lo [|[b2 e2] b] Ha Hb E.
  - reflexivity.
  - specialize (E b2). rewrite mem_nil, mem_cons in E. cbn in Hb. lia.
  - specialize (E b1). rewrite mem_nil, mem_cons in E. cbn in Ha. lia.
  - pose proof (head_le _ _ _ _ _ _ _ Ha Hb E). pose proof (head_le _ _ _ _ _ _ _ Hb Ha (fun x => eq_sym (E x))).
    assert (b2 = b1) by lia. subst b2. assert (e2 = e1) by lia. subst e2.
    destruct Ha as (_ & _ & Ha), Hb as (_ & _ & Hb).
    f_equal. apply (IH (e1 + 2)); auto.
    intros x. specialize (E x). rewrite !mem_cons in E.
    pose proof (mem_below _ _ x Ha). pose proof (mem_below _ _ x Hb). lia.
Qed.

Lemma nodes_eqb_eq a : forall b, nodes_eqb a b = true <-> a = b.
Proof.
  induction a as [|[b1 e1] a IH]; intros [|[b2 e2] b]; cbn; split; intros H; try discriminate; auto.
  - apply andb_true_iff in H as [H H3]. apply andb_true_iff in H as [H1 H2].
    apply Z.eqb_eq in H1, H2. apply IH in H3. congruence.
  - inv H. rewrite !Z.eqb_refl. cbn. apply IH. reflexivity.
Qed.

Lemma len_zero lo l : inv_from lo l -> len l = 0 -> l = [].
Proof.
  destruct l as [|[b e] l]; [reflexivity|]. cbn [inv_from len]. intros (_ & H1 & H2) H.
  rewrite (len_spec l _ H2) in H. lia.
Qed.

(** under the invariant, the shortcuts of Equal (lengths first, empty sets) do not change its answer *)
Lemma equal_eq s a : Inv s -> Inv a -> (equal s a = true <-> s = a).
Proof.
  intros Hs Ha. unfold equal. split.
  - destruct (Z.eqb_spec (len s) (len a)) as [E|E]; cbn [negb]; [|discriminate].
    destruct (Z.eqb_spec (len s) 0) as [Z0|Z0]; [|apply nodes_eqb_eq].
    intros _. rewrite (len_zero 0 s), (len_zero 0 a); auto. congruence.
  - intros <-. rewrite Z.eqb_refl. cbn [negb]. destruct (len s =? 0); [reflexivity|]. apply nodes_eqb_eq. reflexivity.
Qed.

Lemma equal_spec s a : Inv s -> Inv a ->
  (equal s a = true <-> forall x, mem s x = mem a x).
Proof.
  intros Hs Ha. rewrite equal_eq by assumption. split; [intros ->; reflexivity | apply (canonical s 0 a Hs Ha)].
Qed.

Definition zset := Z -> bool.
Definition sget (st : list zset) (i : nat) : zset := nth i st (fun _ => false).

Definition sstep (st : list zset) (o : sop) : list zset :=
  match o with
  | ONew => st ++ [fun _ => false]
  | OAddRange i b e =>
      if Nat.ltb i (length st)
      then set_nth st i (fun x => sget st i x || ((b <=? x) && (x <=? e))) else st
  | OCopy i => st ++ [sget st i]
  | OUnion i j => st ++ [fun x => sget st i x || sget st j x]
  | OComplement i lim => st ++ [fun x => (0 <=? x) && (x <=? lim) && negb (sget st i x)]
  end.
Definition srun (ops : list sop) : list zset := fold_left sstep ops [].

Definition refines (st : list iset) (ab : list zset) : Prop :=
  Forall2 (fun l f => Inv l /\ forall x, mem l x = f x) st ab.

(** the arguments the Go package is specified for, as an executable check on op lists;
    [n] is the number of sets in the store *)
Fixpoint ops_okb (n : nat) (ops : list sop) : bool :=
  match ops with
  | [] => true
  | o :: ops' =>
      match o with
      | ONew => ops_okb (S n) ops'
      | OAddRange i b e => Nat.ltb i n && (0 <=? b) && (b <=? e) && ops_okb n ops'
      | OCopy i => Nat.ltb i n && ops_okb (S n) ops'
      | OUnion i j => Nat.ltb i n && Nat.ltb j n && ops_okb (S n) ops'
      | OComplement i lim => Nat.ltb i n && (0 <=? lim) && ops_okb (S n) ops'
      end
  end.

Lemma refines_length st ab : refines st ab -> length st = length ab.
Proof. induction 1; cbn; auto. Qed.

Lemma refines_nth st ab i : refines st ab -> (i < length st)%nat ->
  Inv (get st i) /\ forall x, mem (get st i) x = sget ab i x.
Proof.
  intros H; revert i; induction H as [|l f st ab Hlf H IH]; intros i Hi; cbn in Hi; [lia|].
  destruct i; cbn; [exact Hlf|]. apply IH. lia.
Qed.

Lemma refines_snoc st ab l f : refines st ab -> Inv l -> (forall x, mem l x = f x) ->
  refines (st ++ [l]) (ab ++ [f]).
Proof. intros. apply Forall2_app; auto. Qed.

Lemma refines_set_nth st ab : refines st ab -> forall i l f, Inv l -> (forall x, mem l x = f x) ->
  refines (set_nth st i l) (set_nth ab i f).
Proof.
  induction 1 as [|l0 f0 st ab Hlf H IH]; intros i l f Hl Hm; cbn; [constructor|].
  destruct i; constructor; auto. apply IH; auto.
Qed.

Lemma set_nth_length {A} (l : list A) : forall i x, length (set_nth l i x) = length l.
Proof. induction l as [|y l IH]; intros [|i] x; cbn; auto. Qed.

Lemma step_refines st ab o ops : refines st ab -> ops_okb (length st) (o :: ops) = true ->
  refines (step st o) (sstep ab o) /\ ops_okb (length (step st o)) ops = true.
Proof.
  intros R Hok. pose proof (refines_length _ _ R) as Hlen.
  destruct o as [|i b e|i|i j|i lim]; cbn [step sstep ops_okb] in *;
    [|apply andb_true_iff in Hok as [Hok Hops]..].
  - rewrite last_length. split; [|exact Hok]. apply refines_snoc; auto. exact I.
  - rewrite <- Hlen. destruct (Nat.ltb_spec i (length st)) as [Hi|]; [|lia].
    destruct (refines_nth _ _ i R Hi) as [Hinv Hm].
    rewrite set_nth_length. split; [|exact Hops]. apply refines_set_nth; auto.
    + apply add_range_inv; auto; lia.
    + intros x. rewrite (add_range_mem _ 0), Hm by (auto; lia). reflexivity.
  - destruct (refines_nth _ _ i R) as [Hinv Hm]; [lia|].
    rewrite last_length. split; [|exact Hops]. apply refines_snoc; auto.
  - destruct (refines_nth _ _ i R) as [Hinv Hm]; [lia|]. destruct (refines_nth _ _ j R) as [Hinv2 Hm2]; [lia|].
    rewrite last_length. split; [|exact Hops]. apply refines_snoc; auto.
    + apply union_inv; auto.
    + intros x. rewrite union_mem, Hm, Hm2 by auto. reflexivity.
  - destruct (refines_nth _ _ i R) as [Hinv Hm]; [lia|].
    rewrite last_length. split; [|exact Hops]. apply refines_snoc; auto.
    + apply complement_inv; auto. lia.
    + intros x. rewrite complement_mem, Hm by (auto; lia). reflexivity.
Qed.

Lemma run_refines ops : forall st ab, refines st ab -> ops_okb (length st) ops = true ->
  refines (fold_left step ops st) (fold_left sstep ops ab).
Proof.
  induction ops as [|o ops IH]; intros st ab R Hok; cbn [fold_left]; [exact R|].
  destruct (step_refines st ab o ops R Hok). apply IH; auto.
Qed.

Theorem store_refines ops : ops_okb 0 ops = true -> refines (run ops) (srun ops).
Proof. intros. apply run_refines; auto. constructor. Qed.

Ltac Zify.zify_post_hook ::= idtac.
