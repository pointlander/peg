(** The switches that the -switch pass builds are well guarded: a case body may drop its
    first-character test (Model/SkipCheck.v) because every key of the case is a first character of the
    body, and the terminal reached through first elements of sequences, captures and inlined rules
    has exactly the body's first-character set ([g'_swok]); the rewrite also keeps literals and switch keys
    below the end-of-input sentinel ([g'_good]).  Both go through [opt_alt_shape], what the rewrite makes of a
    choice piece by piece.  [g'_swok] asks that the table be a fixed point of the first-character analysis; the
    table [fs_table] reports stable is one ([stable_fix]) and passes the check [opt_ok_b] ([stable_opt_ok]).
    These are the ingredients from which Proofs/OptTop.v gets [good_switches (optimize g)] and
    [good_grammar (optimize g)] without assuming them. *)
From PegV Require Import Base.Tac Base.ListX Spec.Syntax Spec.WF Model.Analyses Model.Optimize Model.SkipCheck Proofs.DiagProofs Proofs.SetProofs
  Proofs.PegInv Proofs.Total Proofs.FirstSound Proofs.OptSound.
From Coq Require Import Permutation.


(** a tree without switch nodes ([ranges_ok] admits none) has nothing to guard, whatever the grammar *)
Lemma swok_plain g inl : forall e, ranges_ok e = true -> SkipCheck.swok g inl e.
Proof.
  induction e using expr_ind2; cbn [ranges_ok SkipCheck.swok]; intros Hr; auto; try discriminate.
  - apply swok_list. exact (Forall_forallb_mp _ _ _ H Hr).
  - apply swok_list. exact (Forall_forallb_mp _ _ _ H Hr).
Qed.

Section Swok.
Local Open Scope nat_scope.
Variable g : grammar.
Variable T : list fsres.
Variable tab : list bool.
Variable rank : list nat.
Hypothesis Hwf : wf_b g tab rank = true.
(** the table is a fixed point of the analysis, with well-formed sets, and the grammar has no switch yet *)
Hypothesis Hfix : forall r b, nth_error g r = Some (RBody b) -> tget T r = fs T b.
Hypothesis Hro : forall r b, nth_error g r = Some (RBody b) -> ranges_ok b = true.
Variable br : nat -> bool.
Variable inl : nat -> bool.

Notation g' := (g' g T br).
Notation tr := (tr T).
Notation hrank := (hrank tab rank).
Notation chain := (chain g' inl).

Lemma unord_in s e' es : In (s, e') (unord_of T es) -> exists x, In x es /\ s = snd (fs T x) /\ e' = opt T x.
Proof. intros H. apply in_unord in H. exact (items_in T _ _ _ _ H). Qed.
Lemma ordered_in e' es : In e' (ordered_of T es) -> exists x, In x es /\ e' = opt T x.
Proof.
  intros H. apply in_map_iff in H as ([fl0 [s0 e0]] & <- & H). apply filter_In in H as [H _].
  destruct (items_in T _ _ _ _ H) as (x & H1 & _ & H3). exists x. auto.
Qed.

(** what the rewrite makes of a choice, by its pieces: every alternative must consume; the alternatives kept in
    order and the default are each the translation of an alternative of the choice; so is the body of a case, and
    its keys are those of the alternative's set, which is not too big *)
Lemma opt_alt_shape es (P : expr -> Prop) :
  P (EAlt (map (opt T) es)) ->
  (forall os cs d,
     (forall x, In x es -> fst (fs T x) = true) ->
     (forall y, In y os -> exists x, In x es /\ y = opt T x) ->
     (forall kc, In kc cs -> exists x, In x es /\ kc = (keys_of (snd (fs T x)), opt T x) /\ too_big (snd (fs T x)) = false) ->
     (exists x, In x es /\ d = opt T x) ->
     P (match os with [] => ESwitch cs d | _ => EAlt (os ++ [ESwitch cs d]) end)) ->
  P (opt T (EAlt es)).
Proof.
  intros Hplain Hsw. apply opt_alt_cases; [exact Hplain|]. intros sd d before Ec Hperm Eb. apply Hsw.
  - apply forallb_forall. exact Ec.
  - intros y Hy. exact (ordered_in y es Hy).
  - intros kc Hc. apply in_map_iff in Hc as ([s e'] & <- & Hc). cbn [fst snd].
    destruct (unord_in s e' es (Permutation_in _ Hperm (in_or_app _ _ _ (or_introl Hc)))) as (x & Hx & -> & ->).
    exists x. split; [exact Hx|]. split; [reflexivity|].
    rewrite existsb_exists_false in Eb. apply (Eb (snd (fs T x), opt T x)). apply in_rev. exact Hc.
  - destruct (unord_in sd d es (Permutation_in _ Hperm (in_elt (sd, d) (rev before) []))) as (x & Hx & _ & ->).
    eauto.
Qed.

(** the head of a case body: demanding only when the body must consume, and then it sees the body's set *)
Definition head_ok (x : expr) : Prop :=
  forall bb mk c,
    (fst (fs T x) = false -> chain (tr bb x) mk c) /\
    (fst (fs T x) = true -> too_big (snd (fs T x)) = false -> mem (snd (fs T x)) c = true -> chain (tr bb x) mk c).

Lemma chain_trivial_alt bb es mk c : chain (tr bb (EAlt es)) mk c.
Proof.
  destruct bb; [|constructor]. apply (opt_alt_shape es (fun e => chain e mk c)); [constructor|].
  intros os cs d _ _ _ _. destruct os; constructor.
Qed.

Lemma head_chain : forall h s x, hrank x <= h -> esize x <= s -> ranges_ok x = true -> head_ok x.
Proof.
  induction h as [h IHh] using lt_wf_ind. induction s as [|s IHs]; intros x Hh Hs Hr; [pose proof (esize_pos x) as E; clear -Hs E; lia|].
  destruct x as [|k|lo hi|r|k|k|k| |es|es|x|x|x|x|x|x|cs d]; intros bb mk c; cbn [ranges_ok] in Hr;
    try (split; intros; destruct bb; constructor; fail).
  - (* EDot: never the body of a case, its set has all 1114112 code points and [too_big] stops at 4096 *)
    split; [discriminate|]. intros _ Hb. exfalso. cbn [fs snd] in Hb. vm_compute in Hb. discriminate.
  - (* EChar *) split; [discriminate|]. intros _ _ Hm. rewrite tr_leaf by exact I.
    cbn [fs snd] in Hm. rewrite mem_cons, mem_nil, orb_false_r in Hm. apply andb_true_iff in Hm as [H1 H2].
    apply Z.leb_le in H1, H2. assert (k = c) by lia. subst. destruct mk; constructor.
  - (* ERange *) split; [discriminate|]. intros _ _ Hm. rewrite tr_leaf by exact I.
    apply andb_true_iff in Hr as [H1 H2]. apply Z.leb_le in H1, H2.
    cbn [fs snd] in Hm. rewrite (add_range_mem [] 0%Z) in Hm by (cbn; auto). rewrite mem_nil in Hm. cbn [orb] in Hm.
    constructor. exact Hm.
  - (* EName *) rewrite tr_leaf by exact I. cbn [fs].
    destruct (inl r) eqn:Ei; [|split; intros; apply ch_call; exact Ei].
    destruct (nth_error g r) as [[b|k|]|] eqn:Eg;
      [|split; intros; apply ch_inline_other; auto; intros b0 Hb0; rewrite g'_nth, Eg in Hb0; discriminate..].
    assert (Eg' : nth_error g' r = Some (RBody (tr (br r) b))) by (rewrite g'_nth, Eg; reflexivity).
    pose proof (body_rank g tab rank Hwf _ _ Eg) as Hb.
    assert (Hk : head_ok b) by (apply (IHh (hrank b) (Nat.lt_le_trans _ _ _ Hb Hh) (esize b)); [apply le_n|apply le_n|exact (Hro _ _ Eg)]).
    rewrite (Hfix _ _ Eg). destruct (Hk (br r) mk c) as [K1 K2].
    split; intros; apply (ch_inline _ _ r _ mk c Ei Eg'); auto.
  - (* ESeq *) rewrite tr_seq. destruct es as [|e1 es]; [split; intros; constructor|].
    cbn [map forallb] in *. apply andb_true_iff in Hr as [Hr1 Hr2].
    assert (Hk : head_ok e1).
    { apply IHs; [exact (Nat.le_trans _ _ _ (hrank_seq_head tab rank e1 es) Hh)|cbn [esize fold_right] in Hs; clear -Hs; lia|exact Hr1]. }
    destruct (Hk bb mk c) as [K1 K2]. cbn [fs].
    destruct (fst (fs T e1)) eqn:E1; cbn [fst snd].
    + split; [discriminate|]. intros _ Hb Hm. constructor. apply K2; auto.
    + split; intros; constructor; apply K1; reflexivity.
  - (* EAlt *) split; intros; apply chain_trivial_alt.
  - (* EPush *) rewrite (tr_unary T 0 _ _ bb x (u_push 0)). cbn [fs].
    assert (Hk : head_ok x) by (apply IHs; [exact Hh|cbn [esize] in Hs; clear -Hs; lia|exact Hr]).
    destruct (Hk bb mk c) as [K1 K2]. split; intros; constructor; auto.
Qed.


Notation swok := (swok g' inl).

Lemma swok_cases (cs : list (list rune * expr)) :
  (forall keys b, In (keys, b) cs -> swok b /\ forall c, In c keys -> chain b (Nat.ltb 1 (length keys)) c) ->
  (fix allc (l : list (list rune * expr)) : Prop :=
     match l with
     | [] => True
     | (keys, b) :: l' => (swok b /\ forall c, In c keys -> chain b (Nat.ltb 1 (length keys)) c) /\ allc l'
     end) cs.
Proof.
  induction cs as [|[keys b] cs IH]; intros H; [exact I|]. split; [apply H; left; reflexivity|].
  apply IH. intros k b0 Hin. apply H. right. exact Hin.
Qed.

Lemma swok_opt : forall e, ranges_ok e = true -> swok (opt T e).
Proof.
  induction e using expr_ind2; cbn [ranges_ok]; intros Hr; try (cbn [opt SkipCheck.swok]; auto; fail).
  - (* ESeq *) cbn [opt]. apply swok_seq, Forall_map. exact (Forall_forallb_mp _ _ _ H Hr).
  - (* EAlt *)
    apply Forall_forallb_mp in H; [|exact Hr]. rewrite forallb_forall in Hr.
    apply opt_alt_shape; [apply swok_alt, Forall_map; exact H|]. rewrite Forall_forall in H.
    intros os cs d Ec Hos Hcs (xd & Hxd & ->).
    assert (Hsw : swok (ESwitch cs (opt T xd))).
    { cbn [SkipCheck.swok]. split; [apply H; auto|].
      apply swok_cases. intros keys b Hin. destruct (Hcs _ Hin) as (x & Hx & E & Eb). inv E.
      split; [apply H; auto|]. intros c Hc.
      assert (Hk : head_ok x) by (apply (head_chain (hrank x) (esize x)); auto).
      destruct (Hk true (Nat.ltb 1 (length (keys_of (snd (fs T x))))) c) as [_ K2]. apply K2; [exact (Ec x Hx)|exact Eb|].
      exact (proj1 (proj1 (keys_of_in _ _) Hc)). }
    destruct os as [|o1 os]; [exact Hsw|].
    apply swok_alt, Forall_app. split; [|constructor; [exact Hsw|constructor]].
    apply Forall_forall. intros y Hy. destruct (Hos y Hy) as (x & Hx & ->). apply H; auto.
  - discriminate.
Qed.

Lemma swok_tr bb e : ranges_ok e = true -> swok (tr bb e).
Proof. destruct bb; [apply swok_opt|apply swok_plain]. Qed.

Theorem g'_swok : grammar_swok g' inl.
Proof.
  intros r b' Hb'. rewrite g'_nth in Hb'. destruct (nth_error g r) as [[b|k|]|] eqn:Eg; try discriminate.
  inv Hb'. apply swok_tr. eapply Hro; eauto.
Qed.


Lemma keys_lt s : forallb (fun k => Z.ltb k endSymbol) (keys_of s) = true.
Proof.
  apply forallb_forall. intros k Hk. apply keys_of_in in Hk as [_ Hv].
  unfold valid_rune in Hv. apply andb_true_iff in Hv as [Hv _]. apply andb_true_iff in Hv as [_ Hv].
  apply Z.leb_le in Hv. apply Z.ltb_lt. clear -Hv. unfold maxRune in Hv. unfold endSymbol. lia.
Qed.

Lemma expr_ok_opt : forall e, expr_ok e = true -> expr_ok (opt T e) = true.
Proof.
  induction e using expr_ind2; cbn [expr_ok]; intros Hk; try (cbn [opt expr_ok]; auto; fail).
  - cbn [opt expr_ok]. apply forallb_forall, Forall_forall, Forall_map. exact (Forall_forallb_mp _ _ _ H Hk).
  - apply Forall_forallb_mp in H; [|exact Hk].
    apply opt_alt_shape; [cbn [expr_ok]; apply forallb_forall, Forall_forall, Forall_map; exact H|]. rewrite Forall_forall in H.
    intros os cs d _ Hos Hcs (xd & Hxd & ->).
    assert (Hsw : expr_ok (ESwitch cs (opt T xd)) = true).
    { cbn [expr_ok]. apply andb_true_iff. split; [|apply H; auto].
      apply forallb_forall. intros kc Hin. destruct (Hcs kc Hin) as (x & Hx & -> & _). cbn [fst snd].
      rewrite keys_lt. apply H; auto. }
    destruct os as [|o1 os]; [exact Hsw|].
    cbn [expr_ok]. rewrite forallb_app. apply andb_true_iff. split; [|cbn [forallb]; rewrite Hsw; reflexivity].
    apply forallb_forall. intros y Hy. destruct (Hos y Hy) as (x & Hx & ->). apply H; auto.
Qed.

Theorem g'_good : (forall r b, nth_error g r = Some (RBody b) -> expr_ok b = true) ->
  forall r b', nth_error g' r = Some (RBody b') -> expr_ok b' = true.
Proof.
  intros Hg r b' Hb'. rewrite g'_nth in Hb'. destruct (nth_error g r) as [[b|k|]|] eqn:Eg; try discriminate.
  inv Hb'. unfold OptSound.tr. destruct (br r); [apply expr_ok_opt|]; eapply Hg; eauto.
Qed.

End Swok.

Section Stable.
Open Scope Z_scope.
Variable g : grammar.
Hypothesis Hro : forall r b, nth_error g r = Some (RBody b) -> ranges_ok b = true.

Definition tinv (T : list fsres) : Prop := length T = length g /\ forall s, In s T -> Inv (snd s).

Lemma tget_inv T r : tinv T -> Inv (snd (tget T r)).
Proof.
  intros [_ H]. unfold tget. destruct (nth_in_or_default r T (false, [])) as [Hin|E]; [apply H; exact Hin|rewrite E; exact I].
Qed.

Lemma fs_inv_gen T e : tinv T -> ranges_ok e = true -> Inv (snd (fs T e)).
Proof. intros HT. apply fs_inv_of. intros r. apply tget_inv. exact HT. Qed.

Lemma step_tinv T : tinv T -> tinv (fs_step g T).
Proof.
  intros HT. split; [unfold fs_step; apply map_length|].
  intros s Hs. unfold fs_step in Hs. apply in_map_iff in Hs as (rb & <- & Hrb).
  destruct rb as [b|k|]; try exact I. apply In_nth_error in Hrb as (r & Hr). apply fs_inv_gen; [exact HT|eapply Hro; eauto].
Qed.

Lemma iter_tinv n : forall T T' st, tinv T -> fs_iter n g T = (T', st) -> tinv T' /\ (st = true -> table_eqb T' (fs_step g T') = true).
Proof.
  induction n as [|n IH]; intros T T' st HT H; cbn [fs_iter] in H; [inv H; split; [exact HT|discriminate]|].
  destruct (table_eqb T (fs_step g T)) eqn:E.
  - inv H. split; [exact HT|intros _; exact E].
  - eapply IH; [apply step_tinv; exact HT|exact H].
Qed.

Lemma init_tinv : tinv (map (fun _ => (false, @nil (Z * Z))) g).
Proof. split; [apply map_length|]. intros s Hs. apply in_map_iff in Hs as (x & <- & _). exact I. Qed.

Lemma eqb_entries a : forall b r x y, forallb (fun p => fsres_eqb (fst p) (snd p)) (combine a b) = true ->
  nth_error a r = Some x -> nth_error b r = Some y -> fsres_eqb x y = true.
Proof.
  induction a as [|x0 a IH]; intros [|y0 b] r x y H Hx Hy; try (destruct r; discriminate).
  cbn [combine forallb fst snd] in H. apply andb_true_iff in H as [H1 H2].
  destruct r; cbn [nth_error] in *; [inv Hx; inv Hy; exact H1|eapply IH; eauto].
Qed.

(** at a fixed point the entry of a rule equals the analysis of its body, as sets *)
Lemma stable_entry T r rb : fs_table g = (T, true) -> nth_error g r = Some rb ->
  tinv T /\ fsres_eqb (tget T r) (match rb with RBody b => fs T b | _ => (false, []) end) = true.
Proof.
  intros H Hr. unfold fs_table in H. destruct (iter_tinv _ _ _ _ init_tinv H) as [HT Heq]. split; [exact HT|].
  specialize (Heq eq_refl). unfold table_eqb in Heq. apply andb_true_iff in Heq as [_ Heq].
  assert (Hlen : (r < length T)%nat) by (destruct HT as [L _]; rewrite L; apply nth_error_Some; congruence).
  destruct (nth_error T r) as [x|] eqn:Ex; [|apply nth_error_None in Ex; lia].
  assert (Ey : nth_error (fs_step g T) r = Some (match rb with RBody b => fs T b | _ => (false, []) end)).
  { unfold fs_step. rewrite nth_error_map, Hr. reflexivity. }
  unfold tget. rewrite (nth_error_nth _ _ _ Ex). exact (eqb_entries _ _ _ _ _ Heq Ex Ey).
Qed.

Theorem stable_fix T : fs_table g = (T, true) ->
  tinv T /\ forall r b, nth_error g r = Some (RBody b) -> tget T r = fs T b.
Proof.
  intros H. split; [exact (proj1 (iter_tinv _ _ _ _ init_tinv H))|].
  intros r b Hr. destruct (stable_entry T r _ H Hr) as [HT E]. unfold fsres_eqb in E. apply andb_true_iff in E as [E1 E2].
  apply eqb_prop in E1.
  assert (Ix : Inv (snd (tget T r))) by (apply tget_inv; exact HT).
  assert (Iy : Inv (snd (fs T b))) by (apply fs_inv_gen; [exact HT|eapply Hro; eauto]).
  apply (equal_eq _ _ Ix Iy) in E2.
  destruct (tget T r) as [xf xs]. destruct (fs T b) as [yf ys]. cbn [fst snd] in *. subst. reflexivity.
Qed.

End Stable.

(** the executable side condition of the soundness theorems holds whenever the iteration is stable *)
Section OptOk.
Open Scope Z_scope.
Variable g : grammar.
Hypothesis Hro : forall r b, nth_error g r = Some (RBody b) -> ranges_ok b = true.

Lemma inv_b_complete l : forall lo, inv_from lo l -> inv_b lo l = true.
Proof.
  induction l as [|[b e] l IH]; intros lo H; cbn [inv_b inv_from] in *; [reflexivity|].
  destruct H as (H1 & H2 & H3). rewrite (IH _ H3).
  destruct (Z.leb_spec lo b); [|lia]. destruct (Z.leb_spec b e); [|lia]. reflexivity.
Qed.

Lemma stable_act T r k : fs_table g = (T, true) -> nth_error g r = Some (RAct k) -> fst (tget T r) = false.
Proof.
  intros H Hr. destruct (stable_entry g Hro T r _ H Hr) as [_ E]. unfold fsres_eqb in E.
  apply andb_true_iff in E as [E _]. apply eqb_prop in E. exact E.
Qed.

Theorem stable_opt_ok T : fs_table g = (T, true) -> opt_ok_b g = true.
Proof.
  intros H. unfold opt_ok_b. rewrite H. cbn [andb].
  destruct (stable_fix g Hro T H) as [HT Hfix]. unfold t_ok_b. apply andb_true_iff. split.
  - apply forallb_forall. intros s Hs. apply inv_b_complete. destruct HT as [_ HI]. apply (HI s Hs).
  - apply forallb_forall. intros p Hp. apply In_nth_error in Hp as (r & Hp). rewrite nth_error_zip_seq in Hp.
    destruct (nth_error g r) as [rb|] eqn:E; inv Hp. cbn [fst snd Nat.add]. destruct rb as [b|k|]; cbn [rule_t_ok]; [|rewrite (stable_act T r k H E); reflexivity|reflexivity].
    rewrite (Hro _ _ E), (Hfix _ _ E). cbn [andb].
    assert (Is : Inv (snd (fs T b))) by (apply (fs_inv_gen g); [exact HT|eapply Hro; eauto]).
    rewrite (subset_b_refl _ Is), andb_true_r. destruct (fst (fs T b)); reflexivity.
Qed.

End OptOk.
