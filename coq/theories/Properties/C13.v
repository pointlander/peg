(** C13: generated parsers never crash or misindex on arbitrary input text. *)
From PegV Require Import Base.Tac Spec.Syntax Spec.Peg Spec.WF Model.Machine Model.Gen Model.Analyses Model.Optimize Model.Emit Model.SEmit Model.Exec Model.Premises
  Proofs.Forest Proofs.OptSound Proofs.Top Proofs.SEmitFile Proofs.OptClosed Properties.Example.
From PegV Require Proofs.ParseTop.
Local Open Scope nat_scope.

(** Whenever the semantics has a result, the machine returns a verdict - never [Crash], the model's
    value for a buffer read outside runes+sentinel, a call through a nil rule slot, or slicing the
    token buffer beyond its length - the final position is within the input, and every recorded
    token (or the error token) satisfies begin <= end <= number of runes. *)
Theorem C13_no_crash :
  forall g ptx buf penv, good_grammar g -> good_buf buf -> good_switches g ->
  forall memo inline n r st0 rr,
    slot_ok g inline r -> peg_parse g ptx buf penv n r = Some rr ->
    exists b st', machine g ptx buf penv memo inline n r st0 = Some (Ret b st') /\
      (b = true -> pos st' <= length buf /\ Forall (inb 0 (length buf)) (live st')) /\
      (b = false -> tok_ok (length buf) (maxtok st')).
Proof. exact machine_in_bounds. Qed.
Print Assumptions C13_no_crash.

(** The same for the statements of the generated file (Model/SEmit.v under the goto semantics of Model/Exec.v, see
    C01): no execution of the entry's function ends in [OCrash] - a read of buffer[position] outside runes + sentinel,
    a call through a nil slot of the rule table, memoizedResult slicing the token buffer beyond its length. *)
Theorem C13_generated_code_never_crashes :
  forall g ptx buf penv, good_grammar g -> good_buf buf -> good_switches g ->
  forall memo inline n r st0 rr,
    deep_table_b g inline = true -> slot_ok g inline r -> reached (count_rules g) r = true ->
    peg_parse g ptx buf penv (S n) r = Some rr ->
    ~ xcall buf penv (mk_opts true memo inline g) (gen_fn g ptx inline) r (reset st0) Crash.
Proof.
  intros g ptx buf penv Hg Hb Hsw memo inline n r st0 rr Hd Hs Hr H Hx.
  destruct (generated_code_is_machine g ptx buf penv Hg Hb Hsw memo inline n r st0 rr Hd Hs Hr H Crash Hx) as [_ N]. exact (N eq_refl).
Qed.
Print Assumptions C13_generated_code_never_crashes.

(** Termination at the level of the generated statements, with no hypothesis that the semantics has a result: for every
    grammar with a well-formedness certificate (no left recursion, no loop over an expression that can succeed without
    consuming), two alternatives per choice and every reference defined, on EVERY input and from EVERY earlier parser
    state the entry's function has an execution, that execution returns a verdict - no crash, no divergence - and no
    other execution exists (Ford's totality [c01_total], [code_runs], determinism of the goto semantics;
    Proofs/OptClosed.v).  [C13_generated_code_switch_terminates] is the same for the file generated from the
    optimised tree (-switch). *)
Theorem C13_generated_code_terminates :
  forall g tab rank, wf_b g tab rank = true -> good_grammar g -> good_switches g -> grammar_alt2 g -> closed_names g ->
  forall ptx buf penv, good_buf buf ->
  forall memo inline r rb st0,
    nth_error g r = Some rb -> rb <> RNil -> slot_ok g inline r -> reached (count_rules g) r = true ->
    exists b st', xcall buf penv (mk_opts true memo inline g) (gen_fn g ptx inline) r (reset st0) (Ret b st') /\
      forall res, xcall buf penv (mk_opts true memo inline g) (gen_fn g ptx inline) r (reset st0) res -> res = Ret b st'.
Proof. exact generated_code_terminates. Qed.
Print Assumptions C13_generated_code_terminates.

Theorem C13_generated_code_switch_terminates :
  forall g tab rank, wf_b g tab rank = true -> good_grammar g ->
  (forall r b, nth_error g r = Some (RBody b) -> ranges_ok b = true) ->
  grammar_alt2 g -> closed_names g ->
  forall ptx buf penv, good_buf buf -> valid_buf buf ->
  forall memo inline r rb st0,
    nth_error g r = Some rb -> rb <> RNil ->
    slot_ok (optimize g) inline r -> reached (count_rules (optimize g)) r = true ->
    exists b st', xcall buf penv (mk_opts true memo inline (optimize g)) (gen_fn (optimize g) ptx inline) r (reset st0) (Ret b st') /\
      forall res, xcall buf penv (mk_opts true memo inline (optimize g)) (gen_fn (optimize g) ptx inline) r (reset st0) res -> res = Ret b st'.
Proof.
  intros g tab rank Hwf Hg Hro Ha Hc ptx buf penv Hb Hv memo inline r rb st0 Hr Hn Hsl Hre.
  destruct (ParseTop.parser_runs g tab rank Hwf Hg Hro Ha Hc ptx buf penv Hb Hv memo inline true r rb st0 Hr Hn Hsl Hre)
    as (_ & _ & _ & _ & b & st' & _ & _ & _ & _ & Hx & Hu & _). eauto.
Qed.
Print Assumptions C13_generated_code_switch_terminates.

(** ... and for the -noast file *)
Theorem C13_generated_code_noast_terminates :
  forall g tab rank, wf_b g tab rank = true -> good_grammar g -> good_switches g -> grammar_alt2 g -> closed_names g ->
  forall ptx buf penv, good_buf buf ->
  forall inline r rb st0,
    (forall rb0, nth_error g ptx = Some rb0 -> rb0 = RNil) ->
    nth_error g r = Some rb -> rb <> RNil ->
    o_inline (mk_opts false false inline g) r = false -> reached (count_rules g) r = true ->
    exists b st', xcall buf penv (mk_opts false false inline g) (gen_fn_noast g ptx inline) r (reset st0) (Ret b st') /\
      forall res, xcall buf penv (mk_opts false false inline g) (gen_fn_noast g ptx inline) r (reset st0) res -> res = Ret b st'.
Proof.
  intros g tab rank Hwf Hg Hs Ha Hc ptx buf penv Hb inline r rb st0 Hptx Hr Hn Hi Hre.
  destruct (c01_total g ptx buf penv tab rank r rb Hwf Hr Hn) as ([|n] & rr & H); [discriminate|].
  destruct (generated_code_noast g ptx buf penv Hg Hb Hs inline n r st0 rr Hptx (CountInline.deep_table_all g inline Ha Hc) Hi Hre H) as (st' & Hx & _).
  eexists _, st'. split; [exact Hx|]. intros res' Hx'. exact (ExecDet.xcall_det _ _ _ _ _ _ _ _ Hx' Hx).
Qed.
Print Assumptions C13_generated_code_noast_terminates.

(** non-vacuity: the example grammar meets the premises of the termination theorems *)
Example C13_terminates_nonvacuous :
  wf_auto ex_g = true /\ good_grammar_b ex_g = true /\ grammar_alt2_b ex_g = true /\ closed_names_b ex_g = true /\
  reached (count_rules ex_g) 0 = true.
Proof. vm_compute. repeat split; reflexivity. Qed.

Example C13_nonvacuous :
  verdict_of (peg_parse ex_g ex_ptx [] (std_penv []) 60 0) = Some None /\
  mach_view (machine ex_g ex_ptx [] (std_penv []) true false 60 0 zero_state) = Some (false, 0, [], zero_tok).
Proof. vm_compute. split; reflexivity. Qed.
