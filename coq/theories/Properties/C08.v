(** C08: every accepted grammar yields valid, gofmt-clean Go under every option set.
    What Coq decides here are the pieces of the emission logic that are arithmetic / string facts for
    ALL grammars; that the emitted text parses, type-checks, compiles and is gofmt-canonical is decided
    by running the Go tools on every file the correspondence runs generate (all eight option sets, plus
    streams for many rules, imports, header comments, odd characters, comments in predicates). *)
From PegV Require Import Base.Tac Spec.Syntax Model.Analyses Model.EmitFacts Model.Emit Model.Link Model.Optimize Model.SEmit Proofs.EmitWF Proofs.EmitUse Proofs.EmitScope Proofs.OptCases Proofs.SEmitShape Proofs.LinkProofs Reader.BridgeDefs Reader.BuiltAlt2.
Open Scope Z_scope.

(** The type chosen for rule constants (and for the memo key's rule field) holds every
    rule id: ids are at most the number of rule nodes, which is at most the number of top-level nodes
    (a Go int) the type is chosen from. *)
Theorem C08_rule_ids_fit :
  forall tlen id, 0 <= id -> id <= tlen -> tlen < 2 ^ 63 -> id <= umax (peg_rule_type tlen).
Proof. exact rule_ids_fit. Qed.
Print Assumptions C08_rule_ids_fit.

(** Whatever text a predicate, state change or action contains, the rule comment emitted for it never
    contains the comment terminator. *)
Theorem C08_comment_never_terminated :
  forall s, has_terminator (escape_comment s) = false.
Proof. exact comment_never_terminated. Qed.
Print Assumptions C08_comment_never_terminated.

(** The label / block / variable skeleton of the rule functions ([Model/Emit.v], compared token by
    token with every generated file of the run).  For every grammar in which every name is defined,
    every option set and every rule function of the generated file:
    - no label is declared twice ([NoDup (lbls F)]);
    - every goto has its label in scope - declared in the statement list the goto is in or in an
      enclosing one, never inside a block the goto is outside of ([scoped [] F]);
    - every label that is declared is the target of some goto of the same function (Go rejects unused labels);
    - variables are declared at the head of their block, so no goto jumps over a declaration;
    - no label stands directly before a case clause (where Go wants a statement).
    The dry pass that decides which labels to print is part of the model: the theorem covers the
    agreement of the two passes. *)
Theorem C08_labels_gotos_declarations :
  forall g ast inline asu,
    Forall (fun o => match o with Some F => fn_ok F | None => True end) (emit_all g ast inline asu (fun _ => false)).
Proof. exact emit_all_wellformed. Qed.
Print Assumptions C08_labels_gotos_declarations.

(** ... and for every tree that Compile's first passes produce (Model/Link.v), names without a
    definition included: there the dry pass also walks the slots of the undefined names and numbers the
    labels behind them differently from the real pass, but only where no function contains a goto. *)
Theorem C08_labels_gotos_declarations_linked :
  forall bodies g ptx acts, link bodies = (g, ptx, acts) ->
  forall ast inline asu undef,
    Forall (fun o => match o with Some F => fn_ok F | None => True end) (emit_all g ast inline asu undef).
Proof. exact emit_linked_wellformed. Qed.
Print Assumptions C08_labels_gotos_declarations_linked.

(** Go also rejects a variable that is declared and not used.  Every position / tokenIndex variable
    the emitted code declares is used later in its own statement list (restored, handed to memoize or to
    add), provided every ordered choice of the tree has at least two alternatives ([grammar_alt2], which
    is what the front end builds and what the -switch pass preserves: [C08_switch_keeps_two_alternatives]). *)
Theorem C08_declared_variables_used :
  forall g ast inline asu undef, grammar_alt2 g ->
    Forall (fun o => match o with Some F => du F = true | None => True end) (emit_all g ast inline asu undef).
Proof. exact emit_all_uses. Qed.
Print Assumptions C08_declared_variables_used.

(** Go rejects an identifier that is not declared.  Every positionN / tokenIndexN a rule function reads - in a
    restore, a memoize call, an add or a capture - was declared earlier in the same statement list or in one that
    encloses it ([vok [] [] F]: checked from the empty scope, a block's declarations ending with the block); for
    every grammar, option set and label table, names without a definition included. *)
Theorem C08_variables_declared_before_use :
  forall g ast inline asu undef,
    Forall (fun o => match o with Some F => vok [] [] F = true | None => True end) (emit_all g ast inline asu undef).
Proof. exact emit_all_scoped. Qed.
Print Assumptions C08_variables_declared_before_use.

(** Go rejects a switch that has the same constant in two case clauses.  No switch node of the tree the -switch pass
    builds has a character in two clauses, or twice in one: the clauses come from the alternatives whose first sets
    meet no later alternative's, and the keys of a clause are the elements of one interval list.  The emitter writes
    the keys of a node as they are ([C08_case_keys_copied]).  For every grammar whose characters and ranges are code
    points in order (no switch node before the pass). *)
Theorem C08_switch_cases_distinct :
  forall g, (forall r b, nth_error g r = Some (RBody b) -> ranges_ok b = true) ->
  forall r b, nth_error (optimize g) r = Some (RBody b) -> sw_distinct b.
Proof. exact optimize_cases_distinct. Qed.
Print Assumptions C08_switch_cases_distinct.
Theorem C08_case_keys_copied :
  forall f cs ko l, map fst (fst (scases_emit f cs ko l)) = map fst cs.
Proof. exact scases_keys. Qed.
Print Assumptions C08_case_keys_copied.

(** Go wants a function with a result to end in a terminating statement: every rule function ends in a return
    (statement level, Model/SEmit.v; [forget] maps these files onto the skeletons above, C01_statements_refine_skeleton) *)
Theorem C08_functions_end_in_return :
  forall g ptx ast inline asu undef,
    Forall (fun o => match o with Some F => exists pre b, F = (pre ++ [SReturn b])%list | None => True end)
           (semit_all g ptx ast inline asu undef).
Proof. exact functions_end_in_return. Qed.
Print Assumptions C08_functions_end_in_return.

(** ... and the builder, whatever calls it is given (hence whatever text the front end accepted), ends up with rules
    whose choices all have two alternatives or more: AddAlternate joins two nodes or appends to a choice, the
    case-insensitive forms build two-way choices.  With [link_alt2] and [C08_switch_keeps_two_alternatives] this discharges
    the hypothesis [grammar_alt2] for every tree that reaches the emitter. *)
Theorem C08_builder_keeps_two_alternatives :
  forall nm ak cs s', frun nm ak cs finit = Some s' -> forall n e, In (NRule n e) (back s') -> alt2 e = true.
Proof. exact built_rules_alt2. Qed.
Print Assumptions C08_builder_keeps_two_alternatives.

Theorem C08_switch_keeps_two_alternatives :
  forall g, grammar_alt2 g -> grammar_alt2 (optimize g).
Proof. exact optimize_alt2. Qed.
Print Assumptions C08_switch_keeps_two_alternatives.

Local Open Scope nat_scope.
(** The same facts for the code of any single expression, whatever labels the table says are used
    (hence also for grammars with undefined names), with the exactness of the flag that puts a break
    after a trailing label: [ll] is true iff the code ends with a label. *)
Theorem C08_expression_code_wellformed :
  forall g ast inl asu used n e ko pd mk l c l' ll,
    emit g ast inl asu used n e ko pd mk l = (c, l', ll) ->
    l <= l' /\
    (forall j, In j (jumps c) -> j = ko \/ l <= j < l') /\
    (forall x, In x (lbls c) -> l <= x < l' /\ used x = true) /\
    NoDup (lbls c) /\
    ((forall j, In j (jumps c) -> used j = true) -> scoped [ko] c = true) /\
    ll = ends_lbl c /\ forallb cases1 c = true /\
    nodecl c = true /\ forallb decl1 c = true.
Proof. intros * H. exact (Em_wellformed _ _ _ _ _ _ _ (emit_Em _ _ _ _ _ _ _ _ _ _ _ _ _ _ H)). Qed.
Print Assumptions C08_expression_code_wellformed.

(** non-vacuity: a grammar whose first rule is a choice with an optional tail, a repetition and a
    lookahead; its function has labels, gotos, saved positions and nested blocks *)
Example C08_skeleton_nonvacuous :
  let g : grammar := [RBody (EAlt [ESeq [EChar 97; EQuery (EChar 120)]; ESeq [EStar (EChar 98); ENot EDot]])]%Z in
  option_map (fun c => squash (flat c)) (nth 0 (emit_all g true false (fun _ => false) (fun _ => false)) None) =
  Some [TSt; TSave 0; TOpen; TSaveP 1; TOpen; TSave 2; TCJmp 3; TSt; TOpen; TSave 4; TCJmp 4; TSt; TJmp 5; TLbl 4; TRestore 4; TClose; TLbl 5;
        TJmp 2; TLbl 3; TRestore 2; TLbl 6; TOpen; TSave 7; TCJmp 7; TSt; TJmp 6; TLbl 7; TRestore 7; TClose;
        TOpen; TSave 8; TCJmp 8; TJmp 0; TLbl 8; TRestore 8; TClose; TClose; TLbl 2; TUseP 1; TClose; TMemo 0; TSt; TLbl 0; TMemo 0; TRestore 0; TSt].
Proof. vm_compute. reflexivity. Qed.

Example C08_nonvacuous :
  escape_comment [47; 42; 32; 99; 32; 42; 47; 42; 42; 47]%Z = [47; 42; 32; 99; 32; 42; 32; 47; 42; 42; 32; 47]%Z /\
  peg_rule_type 300 = U16 /\ peg_rule_type 255 = U8.
Proof. vm_compute. repeat split; reflexivity. Qed.
