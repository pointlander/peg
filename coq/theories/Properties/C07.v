(** C07: -noast parsers accept the same language and feed captures to inline actions. *)
From PegV Require Import Base.Tac Spec.Syntax Spec.Peg Spec.WF Model.Machine Model.Runtime Model.Optimize Model.Gen
  Model.Analyses Model.Emit Model.SEmit Model.Exec Proofs.OptSound Proofs.Top Proofs.OptTop Proofs.SEmitFile Proofs.EmitUse Proofs.CountInline Proofs.OptClosed Proofs.ParseTop Properties.Example.
Local Open Scope nat_scope.

(** A parser generated with -noast (with any -inline decision; with -switch the grammar term is the
    optimised tree, as in C02) returns the verdict and consumes the prefix of the PEG semantics - the
    same as the default parser by C01.  Its actions run inline when reached: the action log equals
    Execute's loop applied to every event of the attempt in time order (abandoned branches and
    lookahead included), so that each action sees the most recently completed capture. *)
Theorem C07_noast_language_and_actions :
  forall g ptx buf penv, good_grammar g -> good_buf buf -> good_switches g ->
  (forall rb, nth_error g ptx = Some rb -> rb = RNil) ->
  forall inline n r st0 rr,
    o_inline (mk_opts false false inline g) r = false ->
    peg_parse g ptx buf penv n r = Some rr ->
    exists st', machine_noast g ptx buf penv inline n r st0 = Some (Ret (match fst rr with Fail => false | Succ _ _ => true end) st') /\
      alog st' = execute g ptx (snd rr) (text st0) /\
      match fst rr with Succ p _ => pos st' = p /\ p <= length buf | Fail => True end.
Proof. exact c07_noast. Qed.
Print Assumptions C07_noast_language_and_actions.

(** ... and for the statements of the generated -noast file (Model/SEmit.v under the goto semantics of
    Model/Exec.v, see C01): the action texts are pasted into the rule functions ([SLogAct k]) and captures set the
    text register ([SCapture n]: begin := positionN; end := position; text = ...).  Calling the entry's function
    in a reset parser returns the verdict and offset of the semantics and has run the actions in the order of
    Execute's loop over every event of the attempt. *)
Theorem C07_generated_code_noast :
  forall g ptx buf penv, good_grammar g -> good_buf buf -> good_switches g ->
  forall inline n r st0 rr,
    (forall rb, nth_error g ptx = Some rb -> rb = RNil) ->
    deep_table_b g inline = true -> o_inline (mk_opts false false inline g) r = false -> reached (count_rules g) r = true ->
    peg_parse g ptx buf penv (S n) r = Some rr ->
    exists st', xcall buf penv (mk_opts false false inline g) (gen_fn_noast g ptx inline) r (reset st0)
                      (Ret (match fst rr with Fail => false | Succ _ _ => true end) st') /\
      alog st' = execute g ptx (snd rr) (text st0) /\
      match fst rr with Succ p _ => pos st' = p /\ p <= length buf | Fail => True end.
Proof. exact generated_code_noast. Qed.
Print Assumptions C07_generated_code_noast.

(** ... and that is what every execution returns (the goto semantics is deterministic, Proofs/ExecDet.v) *)
Theorem C07_generated_code_noast_every_execution :
  forall g ptx buf penv, good_grammar g -> good_buf buf -> good_switches g ->
  forall inline n r st0 rr,
    (forall rb, nth_error g ptx = Some rb -> rb = RNil) ->
    deep_table_b g inline = true -> o_inline (mk_opts false false inline g) r = false -> reached (count_rules g) r = true ->
    peg_parse g ptx buf penv (S n) r = Some rr ->
    forall res, xcall buf penv (mk_opts false false inline g) (gen_fn_noast g ptx inline) r (reset st0) res ->
      exists st', res = Ret (match fst rr with Fail => false | Succ _ _ => true end) st' /\
        alog st' = execute g ptx (snd rr) (text st0) /\
        match fst rr with Succ p _ => pos st' = p /\ p <= length buf | Fail => True end.
Proof.
  intros g ptx buf penv Hg Hb Hsw inline n r st0 rr Hptx Hd Hs Hr H res Hx.
  destruct (generated_code_noast g ptx buf penv Hg Hb Hsw inline n r st0 rr Hptx Hd Hs Hr H) as (st' & Hx0 & L & P).
  rewrite (ExecDet.xcall_det _ _ _ _ _ _ _ _ Hx Hx0). eauto.
Qed.
Print Assumptions C07_generated_code_noast_every_execution.

(** ... with the emitter's fuel condition discharged for every grammar whose references are defined and whose choices
    have two alternatives or more (what the front end builds), under either -inline setting (Proofs/CountInline.v) *)
Theorem C07_generated_code_noast_all_options :
  forall g ptx buf penv, good_grammar g -> good_buf buf -> good_switches g -> grammar_alt2 g -> closed_names g ->
  forall inline n r st0 rr,
    (forall rb, nth_error g ptx = Some rb -> rb = RNil) ->
    o_inline (mk_opts false false inline g) r = false -> reached (count_rules g) r = true ->
    peg_parse g ptx buf penv (S n) r = Some rr ->
    forall res, xcall buf penv (mk_opts false false inline g) (gen_fn_noast g ptx inline) r (reset st0) res ->
      exists st', res = Ret (match fst rr with Fail => false | Succ _ _ => true end) st' /\
        alog st' = execute g ptx (snd rr) (text st0) /\
        match fst rr with Succ p _ => pos st' = p /\ p <= length buf | Fail => True end.
Proof.
  intros g ptx buf penv Hg Hb Hsw Ha Hc inline n r st0 rr Hptx.
  exact (C07_generated_code_noast_every_execution g ptx buf penv Hg Hb Hsw inline n r st0 rr Hptx (deep_table_all g inline Ha Hc)).
Qed.
Print Assumptions C07_generated_code_noast_all_options.

(** -noast together with -switch: the -noast parser of the optimised tree terminates with the verdict
    and the consumed prefix of the PEG semantics of the ORIGINAL tree - the language of the default
    parser (C01) - for every grammar with a well-formedness certificate and a consistent analysis table,
    every input of code points and every entry rule. *)
Theorem C07_noast_switch_language :
  forall g tab rank, wf_b g tab rank = true -> opt_ok_b g = true ->
  good_grammar g -> good_grammar (optimize g) -> good_switches g -> good_switches (optimize g) ->
  forall ptx buf penv, good_buf buf -> valid_buf buf ->
  forall inline r rb st0,
    (forall rb0, nth_error (optimize g) ptx = Some rb0 -> rb0 = RNil) ->
    nth_error g r = Some rb -> rb <> RNil ->
    o_inline (mk_opts false false inline (optimize g)) r = false ->
    exists n res evs st',
      peg_parse g ptx buf penv n r = Some (res, evs) /\
      machine_noast (optimize g) ptx buf penv inline n r st0 = Some (Ret (match res with Fail => false | Succ _ _ => true end) st') /\
      match res with Succ p _ => pos st' = p /\ p <= length buf | Fail => True end.
Proof.
  intros g tab rank Hwf Hopt Hg Hg' Hsw Hsw' ptx buf penv Hb Hv inline r rb st0 Hptx Hr Hn Hinl.
  destruct (common_result g tab rank Hwf Hopt ptx buf penv Hv r rb Hr Hn) as (n & res & evs & evs' & H & H').
  destruct (c07_noast (optimize g) ptx buf penv Hg' Hb Hsw' Hptx inline n r st0 _ Hinl H') as (st' & R & _ & P).
  exists n, res, evs, st'. auto.
Qed.
Print Assumptions C07_noast_switch_language.

(** The same without side conditions on the analysis or on the optimised tree (Proofs/OptSwok.v). *)
Theorem C07_noast_switch_language_unconditional :
  forall g tab rank, wf_b g tab rank = true -> good_grammar g ->
  (forall r b, nth_error g r = Some (RBody b) -> ranges_ok b = true) ->
  forall ptx buf penv, good_buf buf -> valid_buf buf ->
  forall inline r rb st0,
    (forall rb0, nth_error (optimize g) ptx = Some rb0 -> rb0 = RNil) ->
    nth_error g r = Some rb -> rb <> RNil ->
    o_inline (mk_opts false false inline (optimize g)) r = false ->
    exists n res evs st',
      peg_parse g ptx buf penv n r = Some (res, evs) /\
      machine_noast (optimize g) ptx buf penv inline n r st0 = Some (Ret (match res with Fail => false | Succ _ _ => true end) st') /\
      match res with Succ p _ => pos st' = p /\ p <= length buf | Fail => True end.
Proof.
  intros g tab rank Hwf Hg Hro ptx buf penv Hb Hv inline r rb st0 Hptx Hr Hn Hinl.
  destruct (optimize_result g tab rank Hwf Hro ptx buf penv r rb Hv Hr Hn) as (n & res & evs & evs' & H & H').
  destruct (c07_noast (optimize g) ptx buf penv (optimize_good_grammar g Hg) Hb (optimize_good_switches g tab rank Hwf Hro)
              Hptx inline n r st0 _ Hinl H') as (st' & R & _ & P).
  exists n, res, evs, st'. auto.
Qed.
Print Assumptions C07_noast_switch_language_unconditional.

(** ... and for the statements of the -noast file generated from the optimised tree (-noast -switch, either -inline
    setting), with no side condition on the analysis, the optimised tree or the emitter: every execution of the entry's
    function returns the verdict and the offset of the semantics of the ORIGINAL tree (Proofs/OptClosed.v). *)
Theorem C07_generated_code_noast_switch :
  forall g tab rank, wf_b g tab rank = true -> good_grammar g ->
  (forall r b, nth_error g r = Some (RBody b) -> ranges_ok b = true) ->
  grammar_alt2 g -> closed_names g ->
  forall ptx buf penv, good_buf buf -> valid_buf buf ->
  forall inline r rb st0,
    (forall rb0, nth_error (optimize g) ptx = Some rb0 -> rb0 = RNil) ->
    nth_error g r = Some rb -> rb <> RNil ->
    o_inline (mk_opts false false inline (optimize g)) r = false -> reached (count_rules (optimize g)) r = true ->
    exists n res evs, peg_parse g ptx buf penv n r = Some (res, evs) /\
      forall out, xcall buf penv (mk_opts false false inline (optimize g)) (gen_fn_noast (optimize g) ptx inline) r (reset st0) out ->
        exists st', out = Ret (match res with Fail => false | Succ _ _ => true end) st' /\
          match res with Succ p _ => pos st' = p /\ p <= length buf | Fail => True end.
Proof.
  intros g tab rank Hwf Hg Hro Ha Hc ptx buf penv Hb Hv inline r rb st0 Hptx Hr Hn Hi Hre.
  destruct (noast_parser_runs g tab rank Hwf Hg Hro Ha Hc ptx buf penv Hb Hv inline true r rb st0 Hptx Hr Hn Hi Hre)
    as (n & res & evs & st' & H & _ & Hu & P).
  exists n, res, evs. split; [exact H|]. intros out Hx. rewrite (Hu _ Hx). eauto.
Qed.
Print Assumptions C07_generated_code_noast_switch.

(** The language part of the property in one statement, at the level of the statements peg writes and with no side
    condition: for every grammar with a well-formedness certificate, under either -inline setting and with or without
    -switch ([tree_of sw g]), on every input and from every earlier state, the call Parse() makes in the -noast file has
    an execution, it is the only one, and it returns the verdict and the offset of the PEG semantics of the grammar as
    written - which by C01_generated_parser_correct is what the default parser returns (Proofs/ParseTop.v). *)
Theorem C07_generated_noast_parser_correct :
  forall g tab rank, wf_b g tab rank = true -> good_grammar g ->
  (forall r b, nth_error g r = Some (RBody b) -> ranges_ok b = true) ->
  grammar_alt2 g -> closed_names g ->
  forall ptx buf penv, good_buf buf -> valid_buf buf ->
  forall inline sw rb st0,
    (forall rb0, nth_error (tree_of sw g) ptx = Some rb0 -> rb0 = RNil) ->
    nth_error g 0 = Some rb -> rb <> RNil ->
    exists n res evs st',
      peg_parse g ptx buf penv n 0 = Some (res, evs) /\
      xcall buf penv (mk_opts false false inline (tree_of sw g)) (gen_fn_noast (tree_of sw g) ptx inline) 0 (reset st0)
            (Ret (match res with Fail => false | Succ _ _ => true end) st') /\
      (forall out, xcall buf penv (mk_opts false false inline (tree_of sw g)) (gen_fn_noast (tree_of sw g) ptx inline) 0 (reset st0) out ->
                   out = Ret (match res with Fail => false | Succ _ _ => true end) st') /\
      match res with Succ p _ => pos st' = p /\ p <= length buf | Fail => True end.
Proof.
  intros g tab rank Hwf Hg Hro Ha Hc ptx buf penv Hb Hv inline sw rb st0 Hptx Hr Hn.
  exact (noast_parser_runs g tab rank Hwf Hg Hro Ha Hc ptx buf penv Hb Hv inline sw 0 rb st0 Hptx Hr Hn (slot_ok_start _ inline) (reached_first sw g rb Hr)).
Qed.
Print Assumptions C07_generated_noast_parser_correct.

(** non-vacuity: on "aby" the action of the abandoned first alternative R1 'x' DOES run inline
    (three times in all: once per attempt of R1), each time with text = [0,2) *)
Example C07_nonvacuous :
  exists st, machine_noast ex_g ex_ptx ex_in_ok (std_penv ex_in_ok) false 60 0 zero_state = Some (Ret true st) /\
    pos st = 3 /\ alog st = [(0, (0, 2)); (0, (0, 2))].
Proof. eexists. split; [vm_compute; reflexivity|]. vm_compute. split; reflexivity. Qed.
