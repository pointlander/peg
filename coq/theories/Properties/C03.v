(** C03: the token stream is the post-order record of the successful derivation only. *)
From PegV Require Import Base.Tac Spec.Syntax Spec.Peg Model.Machine Model.Gen Model.Analyses Model.Emit Model.SEmit Model.Exec
  Proofs.Forest Proofs.Top Proofs.SEmitFile Spec.WF Model.Optimize Model.Premises Proofs.OptSound Proofs.ParseTop Properties.Example.
Local Open Scope nat_scope.

(** After a successful parse the live tokens (Tokens() after Trim) are exactly the post-order
    flattening of the derivation forest the PEG semantics returns - which by construction contains
    nothing from failed alternatives, abandoned iterations or lookahead; the last token is the entry
    rule spanning the consumed prefix; every token has 0 <= begin <= end <= number of runes.
    The result does not depend on the parser's earlier state [st0] (stale token slice). *)
Theorem C03_tokens_postorder :
  forall g ptx buf penv, good_grammar g -> good_buf buf -> good_switches g ->
  forall memo inline n r st0 p f evs,
    slot_ok g inline r -> peg_parse g ptx buf penv n r = Some (Succ p f, evs) ->
    exists st' kids, machine g ptx buf penv memo inline n r st0 = Some (Ret true st') /\
      live st' = Syntax.flat f /\ f = [Node r 0 p kids] /\
      live st' = Syntax.flat kids ++ [(r, (0, p))] /\
      Forall (inb 0 (length buf)) (live st').
Proof. exact c03_tokens. Qed.
Print Assumptions C03_tokens_postorder.

(** ... and so for the tokens the statements of the generated file record (Model/SEmit.v under the goto semantics of
    Model/Exec.v, see C01): whatever execution of the entry's function, the tokens are that post-order *)
Theorem C03_generated_code_tokens :
  forall g ptx buf penv, good_grammar g -> good_buf buf -> good_switches g ->
  forall memo inline n r st0 p f evs,
    deep_table_b g inline = true -> slot_ok g inline r -> reached (count_rules g) r = true ->
    peg_parse g ptx buf penv (S n) r = Some (Succ p f, evs) ->
    forall res, xcall buf penv (mk_opts true memo inline g) (gen_fn g ptx inline) r (reset st0) res ->
      exists st' kids, res = Ret true st' /\ live st' = Syntax.flat f /\ f = [Node r 0 p kids] /\
        live st' = Syntax.flat kids ++ [(r, (0, p))] /\ Forall (inb 0 (length buf)) (live st').
Proof.
  intros g ptx buf penv Hg Hb Hsw memo inline n r st0 p f evs Hd Hs Hr H res Hx.
  destruct (generated_code_is_machine g ptx buf penv Hg Hb Hsw memo inline n r st0 _ Hd Hs Hr H res Hx) as [M _].
  destruct (c03_tokens g ptx buf penv Hg Hb Hsw memo inline (S n) r st0 p f evs Hs H) as (st' & kids & M' & E).
  rewrite M in M'. inv M'. eauto.
Qed.
Print Assumptions C03_generated_code_tokens.

(** ... and with no side condition and no hypothesis that the semantics has a result (Proofs/ParseTop.v): for every grammar
    with a well-formedness certificate, every combination of memo table / -inline / -switch ([tree_of sw g] is the
    optimised tree), every input and every earlier parser state - when the grammar as written accepts a prefix with
    derivation forest [f], every execution of the call Parse() makes returns true and the tokens it has recorded are the
    post-order of [f]: nothing from abandoned alternatives or lookahead, the first rule over the consumed prefix last,
    every token within the input. *)
Theorem C03_generated_parser_tokens :
  forall g tab rank, wf_b g tab rank = true -> good_grammar g ->
  (forall r b, nth_error g r = Some (RBody b) -> ranges_ok b = true) ->
  grammar_alt2 g -> closed_names g ->
  forall ptx buf penv, good_buf buf -> valid_buf buf ->
  forall memo inline sw rb st0,
    nth_error g 0 = Some rb -> rb <> RNil ->
    exists n res evs, peg_parse g ptx buf penv n 0 = Some (res, evs) /\
      forall p f, res = Succ p f ->
      forall out, xcall buf penv (mk_opts true memo inline (tree_of sw g)) (gen_fn (tree_of sw g) ptx inline) 0 (reset st0) out ->
        exists st' kids, out = Ret true st' /\ pos st' = p /\ live st' = Syntax.flat f /\ f = [Node 0 0 p kids] /\
          live st' = Syntax.flat kids ++ [(0, (0, p))] /\ Forall (inb 0 (length buf)) (live st').
Proof.
  intros g tab rank Hwf Hg Hro Ha Hc ptx buf penv Hbuf Hvalid memo inline sw rb st0 Hr Hn.
  destruct (generated_parser_tokens_actions_tree g tab rank Hwf Hg Hro Ha Hc ptx buf penv Hbuf Hvalid memo inline sw rb st0 Hr Hn)
    as (n & res & evs & H & K).
  exists n, res, evs. split; [exact H|]. intros p f E out Hx.
  destruct (K p f E out Hx) as (st' & kids & E1 & E2 & E3 & E4 & E5 & _).
  exists st', kids. repeat split; try assumption. rewrite E4, E3. symmetry. apply Sim.flat_node.
Qed.
Print Assumptions C03_generated_parser_tokens.

(** non-vacuity: on "aby" the first alternative R1 'x' is tried and abandoned (its R1, capture and
    action tokens are overwritten); 4 tokens remain *)
Example C03_nonvacuous :
  mach_view (mach_of true ex_in_ok 0 zero_state)
  = Some (true, 3, [(2, (0, 2)); (3, (2, 2)); (1, (0, 2)); (0, (0, 3))], (0, (0, 3))).
Proof. vm_compute. reflexivity. Qed.
