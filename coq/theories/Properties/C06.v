(** C06: packrat memoisation is invisible except in speed. *)
From PegV Require Import Base.Tac Spec.Syntax Spec.Peg Model.Machine Model.Gen Model.Analyses Model.Emit Model.SEmit Model.Exec
  Proofs.Top Proofs.SEmitFile Spec.WF Model.Optimize Model.Premises Proofs.OptSound Proofs.ParseTop Properties.Example.
Local Open Scope nat_scope.

(** With memoisation enabled or disabled (DisableMemoize), from any earlier states, the machine
    returns the same verdict, the same position and tokens on success and the same error token on
    failure, whenever the semantics has a result (predicates are pure: [penv]).  The proof carries
    the invariant that every memo entry equals what re-running the rule returns (replay restores
    position and tokens exactly) and that re-running could not move maxToken. *)
Theorem C06_memo_invisible :
  forall g ptx buf penv, good_grammar g -> good_buf buf -> good_switches g ->
  forall inline n r st0 st0' rr,
    slot_ok g inline r -> peg_parse g ptx buf penv n r = Some rr ->
    exists b st1 st2,
      machine g ptx buf penv true inline n r st0 = Some (Ret b st1) /\
      machine g ptx buf penv false inline n r st0' = Some (Ret b st2) /\
      (b = true -> pos st1 = pos st2 /\ live st1 = live st2) /\
      (b = false -> maxtok st1 = maxtok st2).
Proof.
  intros g ptx buf penv Hg Hb Hs inline n r st0 st0' [res evs] S H.
  destruct (machines_agree g g ptx buf penv Hg Hs Hg Hs Hb true inline false inline n r st0 st0' res evs evs S S H H) as (b & s1 & s2 & R1 & R2 & A & B).
  exists b, s1, s2. auto.
Qed.
Print Assumptions C06_memo_invisible.

(** The same for the statements of the generated file (Model/SEmit.v under the goto semantics of Model/Exec.v, see
    C01): whatever the entry's function returns with the memo table in use equals what it returns with
    DisableMemoize, from any two earlier parser states (and likewise for two -inline settings). *)
Theorem C06_generated_code_memo_invisible :
  forall g ptx buf penv, good_grammar g -> good_buf buf -> good_switches g ->
  forall memo1 inline1 memo2 inline2 n r st1 st2 rr,
    deep_table_b g inline1 = true -> slot_ok g inline1 r -> deep_table_b g inline2 = true -> slot_ok g inline2 r ->
    reached (count_rules g) r = true -> peg_parse g ptx buf penv (S n) r = Some rr ->
    forall res1 res2,
      xcall buf penv (mk_opts true memo1 inline1 g) (gen_fn g ptx inline1) r (reset st1) res1 ->
      xcall buf penv (mk_opts true memo2 inline2 g) (gen_fn g ptx inline2) r (reset st2) res2 ->
      exists b s1 s2, res1 = Ret b s1 /\ res2 = Ret b s2 /\
        (b = true -> pos s1 = pos s2 /\ live s1 = live s2) /\ (b = false -> maxtok s1 = maxtok s2).
Proof. exact generated_code_options_invisible. Qed.
Print Assumptions C06_generated_code_memo_invisible.

(** ... and with no side condition at all (Proofs/ParseTop.v): for every grammar with a well-formedness certificate, under
    either -inline setting and with or without -switch, from any two earlier parser states, the call Parse() makes with
    the memo table in use and the one it makes with DisableMemoize return the same verdict and, on success, the same
    offset and token list - every execution of either. *)
Theorem C06_generated_parser_memo_invisible :
  forall g tab rank, wf_b g tab rank = true -> good_grammar g ->
  (forall r b, nth_error g r = Some (RBody b) -> ranges_ok b = true) ->
  grammar_alt2 g -> closed_names g ->
  forall ptx buf penv, good_buf buf -> valid_buf buf ->
  forall inline sw rb st1 st2,
    nth_error g 0 = Some rb -> rb <> RNil ->
    forall out1 out2,
      xcall buf penv (mk_opts true true inline (tree_of sw g)) (gen_fn (tree_of sw g) ptx inline) 0 (reset st1) out1 ->
      xcall buf penv (mk_opts true false inline (tree_of sw g)) (gen_fn (tree_of sw g) ptx inline) 0 (reset st2) out2 ->
      exists b s1 s2, out1 = Ret b s1 /\ out2 = Ret b s2 /\ (b = true -> pos s1 = pos s2 /\ live s1 = live s2).
Proof.
  intros g tab rank Hwf Hg Hro Ha Hc ptx buf penv Hb Hv inline sw rb st1 st2 Hr Hn out1 out2 X1 X2.
  exact (generated_parsers_agree g tab rank Hwf Hg Hro Ha Hc ptx buf penv Hb Hv true inline sw false inline sw rb st1 st2 Hr Hn out1 out2 X1 X2).
Qed.
Print Assumptions C06_generated_parser_memo_invisible.

(** non-vacuity: on "aby" rule R1 is re-entered at offset 0 after backtracking: with memoisation the
    second and third entries are memo hits; both machines agree *)
Example C06_nonvacuous :
  mach_view (mach_of true ex_in_ok 0 zero_state) = mach_view (mach_of false ex_in_ok 0 zero_state) /\
  (exists st, mach_of true ex_in_ok 0 zero_state = Some (Ret true st) /\ length (memo st) = 3) /\
  (exists st, mach_of false ex_in_ok 0 zero_state = Some (Ret true st) /\ length (memo st) = 0).
Proof. vm_compute. split; [reflexivity|]. split; eexists; split; reflexivity. Qed.
