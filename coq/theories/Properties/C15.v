(** C15: grammar diagnostics are exact and -strict turns them into failure. *)
From PegV Require Import Base.Tac Spec.Syntax Model.Analyses Model.Cli Generated.CliFacts Proofs.DiagProofs Proofs.LeftRec Proofs.CliProofs.
From Coq Require Import Relations.

(** "used but not defined" names exactly the referenced names that have no definition
    (references from unreachable rules included). *)
Theorem C15_undefined_exact :
  forall g n, In n (undefined_names g) <-> referenced g n /\ defined g n = false.
Proof. exact undefined_exact. Qed.
Print Assumptions C15_undefined_exact.

(** "defined but not used" names exactly the defined rules that are not reachable from the first
    rule through any operator.  [closed_b] is an executable closure test of the computed set; the
    check re-evaluates it for every grammar it runs. *)
Theorem C15_unused_exact :
  forall g n, closed_b g (reached_names g) = true ->
    (In n (unused_names g) <-> In n (map fst g) /\ ~ reach g n).
Proof. exact unused_exact. Qed.
Print Assumptions C15_unused_exact.

(** a rule defined twice is reported (the generator returns an error instead of crashing) *)
Theorem C15_duplicates_exact :
  forall g n, In n (duplicate_names g) <-> exists l1 l2, map fst g = l1 ++ n :: l2 /\ In n l2.
Proof. exact duplicates_exact. Qed.
Print Assumptions C15_duplicates_exact.

(** -strict: in the CLI model a Compile outcome with warnings exits non-zero under -strict and zero
    otherwise, and a Compile outcome without diagnostics is a silent success (the statement of C18_exit_zero_iff_complete, read for its -strict cases). *)
Theorem C15_strict :
  forall i, c18_ok fatal_on_error fatal_only_if_strict i = true.
Proof. exact c18_holds. Qed.
Print Assumptions C15_strict.

(** Left recursion.  [hstep g m k]: the body of rule m can reach a reference to rule k before having
    consumed anything - through any operator: alternatives, sequences whose earlier elements may
    succeed without consuming ([nullable], the least fixed point; lookahead, ? and * are transparent),
    &, !, ?, *, + and captures.  Some "possible infinite left recursion" warning is issued exactly
    when some rule can come back to itself that way (direct, indirect or behind a nullable prefix). *)
Theorem C15_left_recursion_exact :
  forall g, leftrec_warnings g <> [] <-> exists r, clos_trans nat (hstep g) r r.
Proof. exact leftrec_exact. Qed.
Print Assumptions C15_left_recursion_exact.

(** non-vacuity of both directions: indirect recursion behind a nullable prefix and under operators is
    warned; right recursion and recursion behind a consuming element is not *)
Example C15_leftrec_nonvacuous :
  leftrec_warnings [(0, ESeq [EQuery (EChar 97%Z); EName 1]); (1, EAlt [EChar 98%Z; EPlus (ENot (EName 0))])] <> [] /\
  leftrec_warnings [(0, ESeq [EChar 97%Z; EName 0]); (1, EAlt [EChar 98%Z; ESeq [EPlus (EChar 99%Z); EName 1]])] = [].
Proof. vm_compute. split; [discriminate|reflexivity]. Qed.

Example C15_nonvacuous :
  let g : rawg := [(0, ESeq [EQuery (EName 0); EChar 97%Z; EName 7]); (1, EName 2); (2, EName 1); (1, EDot)] in
  undefined_names g = [7] /\ unused_names g = [2; 1] /\ duplicate_names g = [1] /\
  leftrec_warnings g = [0; 1; 2; 1] /\ closed_b g (reached_names g) = true.
Proof. vm_compute. repeat split; reflexivity. Qed.
