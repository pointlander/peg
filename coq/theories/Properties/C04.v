(** C04: actions run once each, in derivation order, with the right captured text. *)
From PegV Require Import Model.Link Proofs.LinkProofs Base.Tac Spec.Syntax Spec.Peg Spec.Tokens Model.Machine Model.Runtime Model.Gen Proofs.Top Properties.Example Model.Analyses Model.Emit Model.SEmit Model.Exec Proofs.SEmitFile Spec.WF Model.Optimize Model.Premises Proofs.OptSound Proofs.ParseTop.
Local Open Scope nat_scope.

(** Execute() over the tokens of a successful parse produces exactly the trace obtained by walking
    the derivation forest left to right: each action node of the derivation emits once, in order,
    paired with the span of the most recently completed capture (PegText node) that precedes it;
    nothing outside the derivation (backtracked branches, lookahead) is in the forest at all. *)
Theorem C04_execute_trace :
  forall g ptx buf penv, good_grammar g -> good_buf buf -> good_switches g ->
  forall memo inline n r st0 p f evs,
    slot_ok g inline r -> peg_parse g ptx buf penv n r = Some (Succ p f, evs) ->
    exists st', machine g ptx buf penv memo inline n r st0 = Some (Ret true st') /\
      execute g ptx (live st') (0, 0) = fst (trace_forest g ptx f (0, 0)).
Proof. exact c04_execute. Qed.
Print Assumptions C04_execute_trace.

(** ... and so for the tokens the statements of the generated file record (Model/SEmit.v, Model/Exec.v, see C01) *)
Theorem C04_generated_code_actions :
  forall g ptx buf penv, good_grammar g -> good_buf buf -> good_switches g ->
  forall memo inline n r st0 p f evs,
    deep_table_b g inline = true -> slot_ok g inline r -> reached (count_rules g) r = true ->
    peg_parse g ptx buf penv (S n) r = Some (Succ p f, evs) ->
    forall res, xcall buf penv (mk_opts true memo inline g) (gen_fn g ptx inline) r (reset st0) res ->
      exists st', res = Ret true st' /\ execute g ptx (live st') (0, 0) = fst (trace_forest g ptx f (0, 0)).
Proof.
  intros g ptx buf penv Hg Hb Hsw memo inline n r st0 p f evs Hd Hs Hr H res Hx.
  destruct (generated_code_is_machine g ptx buf penv Hg Hb Hsw memo inline n r st0 _ Hd Hs Hr H res Hx) as [M _].
  destruct (c04_execute g ptx buf penv Hg Hb Hsw memo inline (S n) r st0 p f evs Hs H) as (st' & M' & E).
  rewrite M in M'. inv M'. eauto.
Qed.
Print Assumptions C04_generated_code_actions.

(** ... and with no side condition and no hypothesis that the semantics has a result, quantified as
    C03_generated_parser_tokens is: when the grammar as written accepts a prefix with derivation forest [f], every
    execution of the call Parse() makes returns true and Execute() over the tokens it has recorded runs the actions of
    the derivation in order, each with the most recently completed capture. *)
Theorem C04_generated_parser_actions :
  forall g tab rank, wf_b g tab rank = true -> good_grammar g ->
  (forall r b, nth_error g r = Some (RBody b) -> ranges_ok b = true) ->
  grammar_alt2 g -> closed_names g ->
  forall ptx buf penv, good_buf buf -> valid_buf buf ->
  forall memo inline sw rb st0,
    nth_error g 0 = Some rb -> rb <> RNil ->
    exists n res evs, peg_parse g ptx buf penv n 0 = Some (res, evs) /\
      forall p f, res = Succ p f ->
      forall out, xcall buf penv (mk_opts true memo inline (tree_of sw g)) (gen_fn (tree_of sw g) ptx inline) 0 (reset st0) out ->
        exists st', out = Ret true st' /\ execute g ptx (live st') (0, 0) = fst (trace_forest g ptx f (0, 0)).
Proof.
  intros g tab rank Hwf Hg Hro Ha Hc ptx buf penv Hbuf Hvalid memo inline sw rb st0 Hr Hn.
  destruct (generated_parser_tokens_actions_tree g tab rank Hwf Hg Hro Ha Hc ptx buf penv Hbuf Hvalid memo inline sw rb st0 Hr Hn)
    as (n & res & evs & H & K).
  exists n, res, evs. split; [exact H|]. intros p f E out Hx.
  destruct (K p f E out Hx) as (st' & kids & E1 & _ & _ & _ & _ & E6 & _). eauto.
Qed.
Print Assumptions C04_generated_parser_actions.

(** Which action is which: Compile's first passes (Model/Link.v, compared with the implementation's
    linked tree for every grammar of the run) number the actions in the order they are met - pre-order
    over the rules in definition order -, give each a rule of its own that carries that number, in
    order, behind the user's rules, and leave no dangling reference. *)
Theorem C04_action_numbering :
  forall bodies g ptx acts, link bodies = (g, ptx, acts) ->
    acts = flat_map acts_of bodies /\
    ract_ids g = seq 0 (length acts) /\
    (forall i b, nth_error bodies i = Some b -> exists b', nth_error g i = Some (RBody b')) /\
    (forall r, In r (grammar_names g) -> r < length g) /\
    (forall i, ptx = Some i -> i < length g).
Proof. exact link_facts. Qed.
Print Assumptions C04_action_numbering.

Example C04_link_nonvacuous :
  link [ESeq [EAct 7; EName 1; EName 5; EPush (EAct 8)]; EAlt [EAct 9; EName 5]] =
  ([RBody (ESeq [EName 2; EName 1; EName 3; EPush (EName 5)]); RBody (EAlt [EName 6; EName 3]);
    RAct 0; RNil; RNil; RAct 1; RAct 2], Some 4, [7; 8; 9]).
Proof. vm_compute. reflexivity. Qed.

(** non-vacuity: on "aby" the action of the abandoned first alternative does not run again;
    Action0 runs once with text = [0,2) *)
Example C04_nonvacuous :
  exists st, mach_of true ex_in_ok 0 zero_state = Some (Ret true st) /\
             execute ex_g ex_ptx (live st) (0, 0) = [(0, (0, 2))].
Proof. eexists. split; vm_compute; reflexivity. Qed.
