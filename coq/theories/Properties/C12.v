(** C12: a parser can be reused: Reset with a new Buffer behaves like a fresh parser. *)
From PegV Require Import Base.Tac Spec.Syntax Spec.Peg Model.Machine Model.Gen Model.Analyses Model.Emit Model.SEmit Model.Exec
  Proofs.PegFacts Proofs.Forest Proofs.Top Proofs.SEmitFile Spec.WF Model.Optimize Model.Premises Proofs.OptSound Proofs.ParseTop Properties.Example.
Local Open Scope nat_scope.

(** Whatever state [st0] the parser object was left in by earlier inputs (token slice, memo table,
    maxToken, position) and a fresh object [st0'] give, after Reset, the same verdict, position,
    tokens and error token. *)
Theorem C12_reuse_is_fresh :
  forall g ptx buf penv, good_grammar g -> good_buf buf -> good_switches g ->
  forall memo inline n r st0 st0' rr,
    slot_ok g inline r -> peg_parse g ptx buf penv n r = Some rr ->
    exists b st1 st2,
      machine g ptx buf penv memo inline n r st0 = Some (Ret b st1) /\
      machine g ptx buf penv memo inline n r st0' = Some (Ret b st2) /\
      (b = true -> pos st1 = pos st2 /\ live st1 = live st2) /\
      (b = false -> maxtok st1 = maxtok st2).
Proof.
  intros g ptx buf penv Hg Hb Hs memo inline n r st0 st0' [res evs] S H.
  destruct (machines_agree g g ptx buf penv Hg Hs Hg Hs Hb memo inline memo inline n r st0 st0' res evs evs S S H H) as (b & s1 & s2 & R1 & R2 & A & B).
  exists b, s1, s2. auto.
Qed.
Print Assumptions C12_reuse_is_fresh.

(** The same for the statements of the generated file (Model/SEmit.v under the goto semantics of Model/Exec.v, see
    C01): whatever the entry's function returns after Reset in an object that has parsed before equals what it
    returns in a fresh one. *)
Theorem C12_generated_code_reuse_is_fresh :
  forall g ptx buf penv, good_grammar g -> good_buf buf -> good_switches g ->
  forall memo inline n r st0 st0' rr,
    deep_table_b g inline = true -> slot_ok g inline r -> reached (count_rules g) r = true ->
    peg_parse g ptx buf penv (S n) r = Some rr ->
    forall res1 res2,
      xcall buf penv (mk_opts true memo inline g) (gen_fn g ptx inline) r (reset st0) res1 ->
      xcall buf penv (mk_opts true memo inline g) (gen_fn g ptx inline) r (reset st0') res2 ->
      exists b s1 s2, res1 = Ret b s1 /\ res2 = Ret b s2 /\
        (b = true -> pos s1 = pos s2 /\ live s1 = live s2) /\ (b = false -> maxtok s1 = maxtok s2).
Proof.
  intros g ptx buf penv Hg Hb Hs memo inline n r st0 st0' rr Hd Hsl Hr H res1 res2 X1 X2.
  exact (generated_code_options_invisible g ptx buf penv Hg Hb Hs memo inline memo inline n r st0 st0' rr Hd Hsl Hd Hsl Hr H res1 res2 X1 X2).
Qed.
Print Assumptions C12_generated_code_reuse_is_fresh.

(** ... and with no side condition at all (Proofs/ParseTop.v): for every grammar with a well-formedness certificate and
    every option combination, whatever the call Parse() makes returns after Reset in an object that has parsed before
    ([st0] arbitrary: token slice, memo table, maxToken, position left by earlier inputs) is what it returns in a fresh
    one: same verdict and, on success, same offset and token list - every execution of either. *)
Theorem C12_generated_parser_reuse_is_fresh :
  forall g tab rank, wf_b g tab rank = true -> good_grammar g ->
  (forall r b, nth_error g r = Some (RBody b) -> ranges_ok b = true) ->
  grammar_alt2 g -> closed_names g ->
  forall ptx buf penv, good_buf buf -> valid_buf buf ->
  forall memo inline sw rb st0,
    nth_error g 0 = Some rb -> rb <> RNil ->
    forall out1 out2,
      xcall buf penv (mk_opts true memo inline (tree_of sw g)) (gen_fn (tree_of sw g) ptx inline) 0 (reset st0) out1 ->
      xcall buf penv (mk_opts true memo inline (tree_of sw g)) (gen_fn (tree_of sw g) ptx inline) 0 (reset zero_state) out2 ->
      exists b s1 s2, out1 = Ret b s1 /\ out2 = Ret b s2 /\ (b = true -> pos s1 = pos s2 /\ live s1 = live s2).
Proof.
  intros g tab rank Hwf Hg Hro Ha Hc ptx buf penv Hb Hv memo inline sw rb st0 Hr Hn out1 out2 X1 X2.
  exact (generated_parsers_agree g tab rank Hwf Hg Hro Ha Hc ptx buf penv Hb Hv memo inline sw memo inline sw rb st0 zero_state Hr Hn out1 out2 X1 X2).
Qed.
Print Assumptions C12_generated_parser_reuse_is_fresh.

(** Integer width.  The generic parameter U types buffer offsets only (position, token begin/end;
    since fix a74140a the token *index* is a uint32 of its own).  Every offset the parser reports is
    at most the length of the input: the consumed prefix, both ends of every token, and both ends of
    the error token.  Hence any instantiation whose U can hold len(input) represents them all, and the
    results cannot depend on which one is chosen. *)
Theorem C12_offsets_fit_the_input :
  forall g ptx buf penv, good_grammar g -> good_buf buf -> good_switches g ->
  forall memo inline n r st0 rr,
    slot_ok g inline r -> peg_parse g ptx buf penv n r = Some rr ->
    exists b st', machine g ptx buf penv memo inline n r st0 = Some (Ret b st') /\
      (b = true -> pos st' <= length buf /\ Forall (inb 0 (length buf)) (live st')) /\
      (b = false -> tok_ok (length buf) (maxtok st')).
Proof. exact machine_in_bounds. Qed.
Print Assumptions C12_offsets_fit_the_input.

(** non-vacuity: parse "abz" (fails, leaves stale tokens, memo entries and a maxToken), then "aby" *)
Example C12_nonvacuous :
  exists st1, mach_of true ex_in_bad 0 zero_state = Some (Ret false st1) /\
    toks st1 <> [] /\ memo st1 <> [] /\ maxtok st1 <> zero_tok /\
    mach_view (mach_of true ex_in_ok 0 st1) = mach_view (mach_of true ex_in_ok 0 zero_state).
Proof. eexists. split; [vm_compute; reflexivity|]. vm_compute. repeat split; discriminate. Qed.
