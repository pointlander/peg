(** C05: AST() and the syntax-tree printers reproduce the derivation tree. *)
From PegV Require Import Base.Tac Spec.Syntax Spec.Peg Spec.Tokens Model.Machine Model.Runtime Model.Gen Proofs.Top Properties.Example Model.Analyses Model.Emit Model.SEmit Model.Exec Proofs.SEmitFile Spec.WF Model.Optimize Model.Premises Proofs.OptSound Proofs.ParseTop.
Local Open Scope nat_scope.

(** The stack algorithm of AST() applied to the tokens of a successful parse returns the
    derivation tree with its empty nodes removed: every non-empty token is a node, a node's children
    are the non-empty tokens nested directly inside it, in input order; the printer lists the nodes
    in pre-order with depth = nesting (the text shown is the slice [begin,end) of the runes). *)
Theorem C05_ast_is_derivation_tree :
  forall g ptx buf penv, good_grammar g -> good_buf buf -> good_switches g ->
  forall memo inline n r st0 p f evs,
    slot_ok g inline r -> peg_parse g ptx buf penv n r = Some (Succ p f, evs) ->
    exists st' kids, machine g ptx buf penv memo inline n r st0 = Some (Ret true st') /\ f = [Node r 0 p kids] /\
      ast (live st') = (if 0 =? p then None else Some (Rose (r, (0, p)) (prune_forest kids))) /\
      print_tree (live st') = (if 0 =? p then [] else preorder 0 (Rose (r, (0, p)) (prune_forest kids))).
Proof. exact c05_ast. Qed.
Print Assumptions C05_ast_is_derivation_tree.

(** ... and so for the tokens the statements of the generated file record (Model/SEmit.v, Model/Exec.v, see C01) *)
Theorem C05_generated_code_ast :
  forall g ptx buf penv, good_grammar g -> good_buf buf -> good_switches g ->
  forall memo inline n r st0 p f evs,
    deep_table_b g inline = true -> slot_ok g inline r -> reached (count_rules g) r = true ->
    peg_parse g ptx buf penv (S n) r = Some (Succ p f, evs) ->
    forall res, xcall buf penv (mk_opts true memo inline g) (gen_fn g ptx inline) r (reset st0) res ->
      exists st' kids, res = Ret true st' /\ f = [Node r 0 p kids] /\
        ast (live st') = (if 0 =? p then None else Some (Rose (r, (0, p)) (prune_forest kids))) /\
        print_tree (live st') = (if 0 =? p then [] else preorder 0 (Rose (r, (0, p)) (prune_forest kids))).
Proof.
  intros g ptx buf penv Hg Hb Hsw memo inline n r st0 p f evs Hd Hs Hr H res Hx.
  destruct (generated_code_is_machine g ptx buf penv Hg Hb Hsw memo inline n r st0 _ Hd Hs Hr H res Hx) as [M _].
  destruct (c05_ast g ptx buf penv Hg Hb Hsw memo inline (S n) r st0 p f evs Hs H) as (st' & kids & M' & E).
  rewrite M in M'. inv M'. eauto.
Qed.
Print Assumptions C05_generated_code_ast.

(** ... and with no side condition and no hypothesis that the semantics has a result, quantified as
    C03_generated_parser_tokens is: when the grammar as written accepts a prefix with derivation forest [f], every
    execution of the call Parse() makes returns true and AST() over the tokens it has recorded is the derivation tree
    without its empty nodes, children in input order, and the printers walk it in pre-order. *)
Theorem C05_generated_parser_ast :
  forall g tab rank, wf_b g tab rank = true -> good_grammar g ->
  (forall r b, nth_error g r = Some (RBody b) -> ranges_ok b = true) ->
  grammar_alt2 g -> closed_names g ->
  forall ptx buf penv, good_buf buf -> valid_buf buf ->
  forall memo inline sw rb st0,
    nth_error g 0 = Some rb -> rb <> RNil ->
    exists n res evs, peg_parse g ptx buf penv n 0 = Some (res, evs) /\
      forall p f, res = Succ p f ->
      forall out, xcall buf penv (mk_opts true memo inline (tree_of sw g)) (gen_fn (tree_of sw g) ptx inline) 0 (reset st0) out ->
        exists st' kids, out = Ret true st' /\ f = [Node 0 0 p kids] /\
          ast (live st') = (if 0 =? p then None else Some (Rose (0, (0, p)) (prune_forest kids))) /\
          print_tree (live st') = (if 0 =? p then [] else preorder 0 (Rose (0, (0, p)) (prune_forest kids))).
Proof.
  intros g tab rank Hwf Hg Hro Ha Hc ptx buf penv Hbuf Hvalid memo inline sw rb st0 Hr Hn.
  destruct (generated_parser_tokens_actions_tree g tab rank Hwf Hg Hro Ha Hc ptx buf penv Hbuf Hvalid memo inline sw rb st0 Hr Hn)
    as (n & res & evs & H & K).
  exists n, res, evs. split; [exact H|]. intros p f E out Hx.
  destruct (K p f E out Hx) as (st' & kids & E1 & _ & E3 & _ & _ & _ & E7 & E8). exists st', kids. auto.
Qed.
Print Assumptions C05_generated_parser_ast.

(** non-vacuity: "aby": R0[0,3) > R1[0,2) > PegText[0,2); the zero-width Action0 token is dropped *)
Example C05_nonvacuous :
  exists st, mach_of true ex_in_ok 0 zero_state = Some (Ret true st) /\
    print_tree (live st) = [(0, (0, (0, 3))); (1, (1, (0, 2))); (2, (2, (0, 2)))].
Proof. eexists. split; vm_compute; reflexivity. Qed.
