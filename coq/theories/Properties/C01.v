(** C01: the generated parser recognises exactly the grammar's PEG language. *)
From PegV Require Import Base.Tac Spec.Syntax Spec.Peg Spec.WF Model.Machine Model.Gen Model.Analyses Model.Emit Model.SEmit Model.Exec
  Proofs.Top Proofs.EmitUse Proofs.SEmitSound Proofs.SEmitFile Proofs.CountInline Model.Optimize Proofs.OptSound Proofs.ParseTop Properties.Example Generated.PegPeg.
From Coq Require Import Lia.
Local Open Scope nat_scope.

(** For every grammar the default generator handles (no switch nodes, literals are code points),
    every rune list, every rule used as entry whose slot holds a function, every memo / inline
    setting, every earlier state of the parser object and every fuel: whenever the PEG semantics
    (ordered choice, greedy possessive repetition, non-consuming lookahead, terminals) of the entry
    rule at offset 0 has a result, the machine returns exactly it: a match consuming the same
    prefix, or a parse error. *)
Theorem C01_machine_is_peg :
  forall g ptx buf penv, good_grammar g -> good_buf buf -> good_switches g ->
  forall memo inline n r st0 rr,
    slot_ok g inline r -> peg_parse g ptx buf penv n r = Some rr ->
    match fst rr with
    | Succ p _ => exists st', machine g ptx buf penv memo inline n r st0 = Some (Ret true st') /\ pos st' = p
    | Fail => exists st', machine g ptx buf penv memo inline n r st0 = Some (Ret false st')
    end.
Proof. exact c01_verdict_prefix. Qed.
Print Assumptions C01_machine_is_peg.

(** Totality: a grammar is well-formed when [wf_b] accepts it with some certificate (nullability table
    + rank per rule): no rule reaches itself through head positions, no repetition of an expression
    that may succeed without consuming, every referenced rule is defined.  On such a grammar the
    semantics has a result for every input and entry rule, so the statement above is unconditional:
    the machine terminates with the verdict and prefix of the PEG semantics. *)
Theorem C01_total :
  forall g ptx buf penv, good_grammar g -> good_buf buf -> good_switches g ->
  forall tab rank memo inline r rb st0,
    wf_b g tab rank = true -> nth_error g r = Some rb -> rb <> RNil -> slot_ok g inline r ->
    exists n rr b st', peg_parse g ptx buf penv n r = Some rr /\
      machine g ptx buf penv memo inline n r st0 = Some (Ret b st') /\
      (b = true <-> exists p f, fst rr = Succ p f /\ pos st' = p).
Proof. exact c01_total_machine. Qed.
Print Assumptions C01_total.

Example C01_wf_nonvacuous : wf_auto ex_g = true.
Proof. vm_compute. reflexivity. Qed.

(** non-vacuity: the example grammar accepts "aby" consuming 3 runes and rejects "abz",
    from the first rule and from rule 1 used as entry *)
Example C01_nonvacuous :
  slot_ok ex_g false 0 /\ slot_ok ex_g false 1 /\
  verdict_of (spec_of ex_in_ok 0) = Some (Some 3) /\
  verdict_of (spec_of ex_in_bad 0) = Some None /\
  verdict_of (spec_of ex_in_ok 1) = Some (Some 2).
Proof. vm_compute. repeat split; reflexivity. Qed.

(** Model/SEmit.v writes, for every rule that gets a function, the statements the generator's templates write
    (position++, the character tests with their goto, the saves and restores of position / tokenIndex, add,
    memoize, the calls of other rule functions, blocks with break, switch with its clauses); Model/Exec.v gives
    them the meaning Go gives them: a goto leaves the blocks it stands in until it finds its label, break leaves
    one block, return leaves the function.  [forget] maps the statements onto the skeleton the correspondence
    check reads back from every generated file. *)

(** the statements refine the skeleton: forgetting which statement is which gives Model/Emit.v's file *)
Theorem C01_statements_refine_skeleton :
  forall g ptx ast inline asu undef,
    map (option_map forget) (semit_all g ptx ast inline asu undef) = emit_all g ast inline asu undef.
Proof. exact forget_semit_all. Qed.
Print Assumptions C01_statements_refine_skeleton.

(** every rule function of the file, called in any state, returns what the machine's rule function returns:
    same verdict, position, tokens, memo table, text register; it crashes only where the machine says so *)
Theorem C01_rule_functions_are_the_machine :
  forall g ptx ast memo inline asu buf penv, deep_table_b g inline = true ->
  forall n r m res,
    o_inline (emit_opts g ast memo inline asu) r = false -> reached (count_rules g) r = true ->
    (exists b, nth_error g r = Some b /\ b <> RNil) ->
    rule_fn g (emit_opts g ast memo inline asu) (run_f g ptx buf penv (emit_opts g ast memo inline asu) n) r m = Some res ->
    xcall buf penv (emit_opts g ast memo inline asu) (emitted_fn g ptx ast inline asu) r m res.
Proof. exact emitted_file_sound. Qed.
Print Assumptions C01_rule_functions_are_the_machine.

(** ... and with the machine theorem above: the generated statements compute the PEG semantics *)
Theorem C01_generated_code_is_peg :
  forall g ptx buf penv, good_grammar g -> good_buf buf -> good_switches g ->
  forall memo inline n r st0 rr,
    deep_table_b g inline = true -> slot_ok g inline r -> reached (count_rules g) r = true ->
    peg_parse g ptx buf penv (S n) r = Some rr ->
    exists res, xcall buf penv (mk_opts true memo inline g) (gen_fn g ptx inline) r (reset st0) res /\
      match rr with
      | (Succ p f, _) => exists st', res = Ret true st' /\ pos st' = p /\ live st' = Syntax.flat f
      | (Fail, evs) => exists st', res = Ret false st' /\ maxtok st' = first_furthest evs
      end.
Proof. exact generated_code_is_peg. Qed.
Print Assumptions C01_generated_code_is_peg.

(** ... and every execution does: the goto semantics is deterministic (Proofs/ExecDet.v), so whatever the entry's
    function returns is that result *)
Theorem C01_generated_code_every_execution :
  forall g ptx buf penv, good_grammar g -> good_buf buf -> good_switches g ->
  forall memo inline n r st0 rr,
    deep_table_b g inline = true -> slot_ok g inline r -> reached (count_rules g) r = true ->
    peg_parse g ptx buf penv (S n) r = Some rr ->
    forall res, xcall buf penv (mk_opts true memo inline g) (gen_fn g ptx inline) r (reset st0) res ->
      match rr with
      | (Succ p f, _) => exists st', res = Ret true st' /\ pos st' = p /\ live st' = Syntax.flat f
      | (Fail, evs) => exists st', res = Ret false st' /\ maxtok st' = first_furthest evs
      end.
Proof. exact generated_code_every_execution. Qed.
Print Assumptions C01_generated_code_every_execution.

(** With the default options (-inline off) the side condition is a theorem (Proofs/CountReach.v: the rules countRules
    marks are closed under the names in their bodies and its fuel suffices; Proofs/CountInline.v: [deep_table_all]), and
    the first rule is always marked: for every grammar whose names all stand for a rule or an action and whose choices
    have two alternatives or more (what the front end builds), every input, memo setting and earlier parser state, every
    execution of the first rule's function of the generated file returns what the PEG semantics says. *)
Theorem C01_generated_code_is_peg_default :
  forall g ptx buf penv, good_grammar g -> good_buf buf -> good_switches g -> grammar_alt2 g -> closed_names g ->
  forall memo n st0 rr, peg_parse g ptx buf penv (S n) 0 = Some rr ->
  forall res, xcall buf penv (mk_opts true memo false g) (gen_fn g ptx false) 0 (reset st0) res ->
    match rr with
    | (Succ p f, _) => exists st', res = Ret true st' /\ pos st' = p /\ live st' = Syntax.flat f
    | (Fail, evs) => exists st', res = Ret false st' /\ maxtok st' = first_furthest evs
    end.
Proof.
  intros g ptx buf penv Hg Hb Hs Ha Hc memo n st0 rr H.
  apply (generated_code_every_execution g ptx buf penv Hg Hb Hs memo false n 0 st0 rr (deep_table_all g false Ha Hc) (slot_ok_start g false)); [|exact H].
  apply reached_start. intros E. rewrite E in H. discriminate.
Qed.
Print Assumptions C01_generated_code_is_peg_default.
(** ... and from any other rule countRules marks *)
Theorem C01_generated_code_is_peg_default_any_rule :
  forall g ptx buf penv, good_grammar g -> good_buf buf -> good_switches g -> grammar_alt2 g -> closed_names g ->
  forall memo n r st0 rr, reached (count_rules g) r = true -> peg_parse g ptx buf penv (S n) r = Some rr ->
  forall res, xcall buf penv (mk_opts true memo false g) (gen_fn g ptx false) r (reset st0) res ->
    match rr with
    | (Succ p f, _) => exists st', res = Ret true st' /\ pos st' = p /\ live st' = Syntax.flat f
    | (Fail, evs) => exists st', res = Ret false st' /\ maxtok st' = first_furthest evs
    end.
Proof.
  intros g ptx buf penv Hg Hb Hs Ha Hc memo n r st0 rr.
  exact (generated_code_every_execution g ptx buf penv Hg Hb Hs memo false n r st0 rr (deep_table_all g false Ha Hc) (slot_ok_noinline g r)).
Qed.
Print Assumptions C01_generated_code_is_peg_default_any_rule.
(** ... and with -inline: a rule countRules arrives at once is met by its depth-first walk on the first arrival only, which
    walks the body there and then with fuel to spare, and the emitter walks the same bodies in the same nesting
    (Proofs/CountInline.v).  So [deep_table_b] holds for every grammar under either setting, and the code-level theorems
    of C01 - C07, C11 - C13 need no side condition beyond the two syntactic ones. *)
Theorem C01_side_condition_always_holds :
  forall g inline, grammar_alt2 g -> closed_names g -> deep_table_b g inline = true.
Proof. exact deep_table_all. Qed.
Print Assumptions C01_side_condition_always_holds.
Theorem C01_generated_code_is_peg_all_options :
  forall g ptx buf penv, good_grammar g -> good_buf buf -> good_switches g -> grammar_alt2 g -> closed_names g ->
  forall memo inline n r st0 rr, slot_ok g inline r -> reached (count_rules g) r = true -> peg_parse g ptx buf penv (S n) r = Some rr ->
  forall res, xcall buf penv (mk_opts true memo inline g) (gen_fn g ptx inline) r (reset st0) res ->
    match rr with
    | (Succ p f, _) => exists st', res = Ret true st' /\ pos st' = p /\ live st' = Syntax.flat f
    | (Fail, evs) => exists st', res = Ret false st' /\ maxtok st' = first_furthest evs
    end.
Proof.
  intros g ptx buf penv Hg Hb Hs Ha Hc memo inline n r st0 rr Hsl.
  exact (generated_code_every_execution g ptx buf penv Hg Hb Hs memo inline n r st0 rr (deep_table_all g inline Ha Hc) Hsl).
Qed.
Print Assumptions C01_generated_code_is_peg_all_options.
Example C01_default_nonvacuous : grammar_alt2 ex_g /\ closed_names ex_g /\ grammar_alt2 pegpeg_d /\ closed_names pegpeg_d.
Proof.
  split; [apply grammar_alt2_b_ok; vm_compute; reflexivity|]. split; [apply closed_names_b_ok; vm_compute; reflexivity|].
  split; [apply grammar_alt2_b_ok; vm_compute; reflexivity|apply closed_names_b_ok; vm_compute; reflexivity].
Qed.

(** the bridge for the other properties: what the entry's function of the generated file returns IS what the machine
    returns (and is never a crash), so every theorem about [machine .. = Some (Ret b st')] - the tokens (C03), Execute's
    trace (C04), the syntax tree (C05), memoisation (C06), the error token (C11), reuse after Reset (C12: [st0] is any
    earlier state), no crash (C13) - is a theorem about the generated statements; C04, C05, C06, C11, C13 state theirs *)
Theorem C01_generated_code_is_machine :
  forall g ptx buf penv, good_grammar g -> good_buf buf -> good_switches g ->
  forall memo inline n r st0 rr,
    deep_table_b g inline = true -> slot_ok g inline r -> reached (count_rules g) r = true ->
    peg_parse g ptx buf penv (S n) r = Some rr ->
    forall res, xcall buf penv (mk_opts true memo inline g) (gen_fn g ptx inline) r (reset st0) res ->
      machine g ptx buf penv memo inline (S n) r st0 = Some res /\ res <> Crash.
Proof. exact generated_code_is_machine. Qed.
Print Assumptions C01_generated_code_is_machine.

(** THE HEADLINE, at the level of the statements peg writes: for every grammar with a well-formedness certificate
    (ranges in order, two alternatives per choice, every reference defined - what the front end builds and the link pass
    leaves), under every combination of -inline and -switch ([tree_of sw g] is the optimised tree when -switch is on) and
    with or without the memo table, on every input of code points and from every earlier parser state, the call Parse()
    makes - the first rule's function in a reset parser - has an execution, that execution returns and is the only one,
    and what it returns is the verdict, the offset and the token list of the PEG semantics of the grammar AS WRITTEN.
    No hypothesis about the analysis, the optimised tree, the emitter's bookkeeping or the existence of a result
    (Proofs/ParseTop.v: Ford's totality, the -switch rewrite's soundness, the machine simulation, the goto semantics of
    the emitted statements, its determinism, and the counting arguments for the emitter's fuel, composed). *)
Theorem C01_generated_parser_correct :
  forall g tab rank, wf_b g tab rank = true -> good_grammar g ->
  (forall r b, nth_error g r = Some (RBody b) -> ranges_ok b = true) ->
  grammar_alt2 g -> closed_names g ->
  forall ptx buf penv, good_buf buf -> valid_buf buf ->
  forall memo inline sw rb st0,
    nth_error g 0 = Some rb -> rb <> RNil ->
    exists n res evs b st',
      peg_parse g ptx buf penv n 0 = Some (res, evs) /\
      xcall buf penv (mk_opts true memo inline (tree_of sw g)) (gen_fn (tree_of sw g) ptx inline) 0 (reset st0) (Ret b st') /\
      (forall out, xcall buf penv (mk_opts true memo inline (tree_of sw g)) (gen_fn (tree_of sw g) ptx inline) 0 (reset st0) out -> out = Ret b st') /\
      match res with
      | Succ p f => b = true /\ pos st' = p /\ live st' = Syntax.flat f
      | Fail => b = false
      end.
Proof.
  intros g tab rank Hwf Hg Hro Ha Hc ptx buf penv Hb Hv memo inline sw rb st0 Hr Hn.
  destruct (parser_runs g tab rank Hwf Hg Hro Ha Hc ptx buf penv Hb Hv memo inline sw 0 rb st0 Hr Hn (slot_ok_start _ inline) (reached_first sw g rb Hr))
    as (n & res & evs & evs' & b & st' & H & _ & _ & _ & Hx & Hu & K).
  exists n, res, evs, b, st'. split; [exact H|]. split; [exact Hx|]. split; [exact Hu|]. destruct res; [apply K|exact K].
Qed.
Print Assumptions C01_generated_parser_correct.

(** non-vacuity: the side condition holds for the example grammar under both settings and for the grammar
    peg's own front end is generated from (-inline -switch), and the first rule of the example has a function of more than four statements *)
Example C01_code_nonvacuous :
  deep_table_b ex_g false = true /\ deep_table_b ex_g true = true /\ deep_table_b pegpeg_is true = true /\
  match gen_fn ex_g ex_ptx true 0 with Some body => Nat.ltb 4 (length body) | None => false end = true.
Proof. split; [vm_compute; reflexivity|]. split; [vm_compute; reflexivity|]. split; vm_compute; reflexivity. Qed.
