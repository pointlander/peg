(** C17: bootstrap chain and self-regeneration converge on the checked-in front end.
    What Coq decides: facts about peg.peg's own rule trees (regenerated on every run by dumping what the
    real front end + Compile build, Generated/PegPeg.v) and the corollaries of C01/C02 at these terms, for
    EVERY grammar text.  Byte-level convergence of the chain of go-run processes and the agreement of the
    shipped grammars on their samples are execution facts, decided by the check itself. *)
From PegV Require Import Base.Tac Spec.Syntax Spec.Peg Spec.WF Model.Machine Model.SkipCheck Model.Optimize Model.Gen
  Proofs.OptSound Proofs.Top Proofs.OptTop Generated.PegPeg.

(** [good_switches_b] asks for the inline tables inside a function that the check calls at every rule
    reference; evaluation by need computes a let-bound table once, a table under a lambda at every call. *)
Lemma good_switches_b_shared g :
  (let fuel := (S (Analyses.gsize g) * S (length g))%nat in
   let t1 := Analyses.inline_table true g in
   let t0 := Analyses.inline_table false g in
   grammar_swok_b g (fun r => nth r t1 false) fuel && grammar_swok_b g (fun r => nth r t0 false) fuel) = true ->
  good_switches_b g = true.
Proof. exact (fun H => H). Qed.

(** peg.peg is a well-formed grammar, its trees contain only code-point literals, and every switch of
    the -inline -switch tree is well guarded *)
Theorem C17_pegpeg_wellformed :
  wf_auto pegpeg_d = true /\ good_grammar_b pegpeg_d = true /\ good_switches_b pegpeg_d = true /\
  wf_auto pegpeg_is = true /\ good_grammar_b pegpeg_is = true /\ good_switches_b pegpeg_is = true.
Proof.
  refine (conj _ (conj _ (conj _ (conj _ (conj _ (good_switches_b_shared _ _)))))); vm_compute; reflexivity.
Qed.
Print Assumptions C17_pegpeg_wellformed.

(** Hence, for EVERY text (rune list) and either tree: the front end terminates with exactly the verdict
    and consumed prefix of the PEG semantics of that tree, whatever the memo / inline decisions and the
    previous state of the parser object - not only on the grammars that were tried. *)
Theorem C17_frontend_total :
  forall (g : grammar), g = pegpeg_d \/ g = pegpeg_is ->
  forall ptx buf penv memo inline st0, good_buf buf -> slot_ok g inline 0 ->
    exists n rr b st', peg_parse g ptx buf penv n 0 = Some rr /\
      machine g ptx buf penv memo inline n 0 st0 = Some (Ret b st') /\
      (b = true <-> exists p f, fst rr = Succ p f /\ pos st' = p).
Proof.
  intros g Hg ptx buf penv memo inline st0 Hb Hs.
  destruct C17_pegpeg_wellformed as (W1 & G1 & S1 & W2 & G2 & S2).
  assert (H : wf_auto g = true /\ good_grammar_b g = true /\ good_switches_b g = true /\
              exists rb, nth_error g 0 = Some rb /\ rb <> RNil).
  { (* named, not found by [auto]: the facts are closed booleans, any of them converts to any other by evaluation *)
    destruct Hg as [-> | ->]; [refine (conj W1 (conj G1 (conj S1 _))) | refine (conj W2 (conj G2 (conj S2 _)))];
      (eexists; split; [reflexivity|discriminate]). }
  destruct H as (W & G & S & rb & E & N).
  exact (c01_total_machine g ptx buf penv (good_grammar_b_ok _ G) Hb (good_switches_b_ok _ S)
           (nul_table g) (rank_table g (nul_table g)) memo inline 0 rb st0 W E N Hs).
Qed.
Print Assumptions C17_frontend_total.

(** The -inline -switch tree that the implementation builds for peg.peg IS the model's optimiser applied
    to the default tree, and the analysis table of peg.peg is consistent. *)
Theorem C17_switch_tree_is_optimize : optimize pegpeg_d = pegpeg_is /\ opt_ok_b pegpeg_d = true.
Proof. vm_compute. split; reflexivity. Qed.
Print Assumptions C17_switch_tree_is_optimize.

(** Hence a front end regenerated with -switch (with or without -inline, memoised or not) and the
    default one read EVERY grammar text alike: same verdict, same consumed prefix, same token
    sequence - therefore the same syntax tree handed to the actions that build the rule tree. *)
Theorem C17_frontends_agree :
  forall ptx buf penv memo memo' inline inline' st0 st0',
    good_buf buf -> valid_buf buf -> slot_ok pegpeg_d inline 0 -> slot_ok pegpeg_is inline' 0 ->
    exists n b st1 st2,
      machine pegpeg_d ptx buf penv memo inline n 0 st0 = Some (Ret b st1) /\
      machine pegpeg_is ptx buf penv memo' inline' n 0 st0' = Some (Ret b st2) /\
      (b = true -> pos st1 = pos st2 /\ Machine.live st1 = Machine.live st2).
Proof.
  intros ptx buf penv memo memo' inline inline' st0 st0' Hb Hv Hs Hs'.
  destruct C17_pegpeg_wellformed as (W1 & G1 & S1 & W2 & G2 & S2).
  destruct C17_switch_tree_is_optimize as (Eo & Ho).
  rewrite <- Eo in *.
  eapply (c02_switch_invisible pegpeg_d (nul_table pegpeg_d) (rank_table pegpeg_d (nul_table pegpeg_d)) W1 Ho
            (good_grammar_b_ok _ G1) (good_grammar_b_ok _ G2) (good_switches_b_ok _ S1) (good_switches_b_ok _ S2)
            ptx buf penv Hb Hv memo memo' inline inline' 0 _ st0 st0' eq_refl); [discriminate|exact Hs|exact Hs'].
Qed.
Print Assumptions C17_frontends_agree.
