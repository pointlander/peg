(** C09: code generation is deterministic and free of data races. *)
From PegV Require Import Base.Tac Model.Conc Proofs.ConcProofs Generated.Footprints.

(** General theorem (sequentially consistent interleaving model): two programs of atomic actions, each
    action respecting its declared footprint, such that no action of one writes a cell the other reads
    or writes: every interleaving ends in the store of running one after the other (that no two steps
    of different programs conflict is the hypothesis itself: Proofs/ConcProofs.v, no_adjacent_conflict). *)
Theorem C09_sections_commute :
  forall V p1 p2 l, interleaving V p1 p2 l ->
    Forall (respects V) p1 -> Forall (respects V) p2 ->
    (forall a b, In a p1 -> In b p2 -> no_conflict V a b) ->
    forall s, seq_eq V (run V l s) (run V (p1 ++ p2) s).
Proof. exact interleavings_commute. Qed.
Print Assumptions C09_sections_commute.

(** Instance at the footprints regenerated from tree/peg.go on every run: Compile starts exactly two
    goroutines (reference counting / reachability, and the left-recursion walk); what either writes,
    the other neither reads nor writes.  Hence any two action sequences staying inside these
    footprints satisfy the hypothesis of the theorem above. *)
Theorem C09_compile_race_free :
  goroutines = 2 /\
  disjoint g1_writes (g2_reads ++ g2_writes) /\ disjoint g2_writes (g1_reads ++ g1_writes).
Proof.
  split; [reflexivity|]. split; apply disjoint_b_ok; vm_compute; reflexivity.
Qed.
Print Assumptions C09_compile_race_free.

Theorem C09_footprints_imply_no_conflict :
  forall V (a b : action V),
    incl (a_reads V a) g1_reads -> incl (a_writes V a) g1_writes ->
    incl (a_reads V b) g2_reads -> incl (a_writes V b) g2_writes ->
    no_conflict V a b.
Proof.
  intros V a b Ra Wa Rb Wb. destruct C09_compile_race_free as (_ & D1 & D2).
  split; [exact (disjoint_incl _ _ _ _ _ _ D1 Wa Rb Wb) | exact (disjoint_incl _ _ _ _ _ _ D2 Wb Ra Wa)].
Qed.
Print Assumptions C09_footprints_imply_no_conflict.

(** No iteration over a map and no other source of run-to-run variation (time, random numbers,
    environment, pointer formatting) in tree/*.go and set/*.go: with the goroutines commuting, the
    output is a function of (tree, options, arguments). *)
Theorem C09_no_nondeterminism_source : map_ranges = [] /\ nondet_sources = [].
Proof. split; reflexivity. Qed.
Print Assumptions C09_no_nondeterminism_source.
