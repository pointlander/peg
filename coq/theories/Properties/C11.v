(** C11: a failed parse returns an error that locates the failure correctly. *)
From PegV Require Import Base.Tac Spec.Syntax Spec.Peg Model.Machine Model.Runtime Model.Gen Proofs.Forest Proofs.RuntimeProofs Proofs.Top Properties.Example Model.Analyses Model.Emit Model.SEmit Model.Exec Proofs.SEmitFile Spec.WF Model.Optimize Model.Premises Proofs.OptSound Proofs.ParseTop.
Local Open Scope nat_scope.

(** Parse returns nil exactly when the entry rule matched (C01).  On failure the error's token is the
    first, in time order, of the non-empty tokens completed during the attempt (failed branches and
    lookahead included) that reached the furthest offset - or the zero token - and it lies inside
    the input. *)
Theorem C11_error_token :
  forall g ptx buf penv, good_grammar g -> good_buf buf -> good_switches g ->
  forall memo inline n r st0 evs,
    slot_ok g inline r -> peg_parse g ptx buf penv n r = Some (Fail, evs) ->
    exists st', machine g ptx buf penv memo inline n r st0 = Some (Ret false st') /\
      maxtok st' = first_furthest evs /\ tok_ok (length buf) (maxtok st').
Proof. exact c11_error_token. Qed.
Print Assumptions C11_error_token.

(** ... and so for the error token the statements of the generated file leave (Model/SEmit.v, Model/Exec.v, see C01) *)
Theorem C11_generated_code_error_token :
  forall g ptx buf penv, good_grammar g -> good_buf buf -> good_switches g ->
  forall memo inline n r st0 evs,
    deep_table_b g inline = true -> slot_ok g inline r -> reached (count_rules g) r = true ->
    peg_parse g ptx buf penv (S n) r = Some (Fail, evs) ->
    forall res, xcall buf penv (mk_opts true memo inline g) (gen_fn g ptx inline) r (reset st0) res ->
      exists st', res = Ret false st' /\ maxtok st' = first_furthest evs /\ tok_ok (length buf) (maxtok st').
Proof.
  intros g ptx buf penv Hg Hb Hsw memo inline n r st0 evs Hd Hs Hr H res Hx.
  destruct (generated_code_is_machine g ptx buf penv Hg Hb Hsw memo inline n r st0 _ Hd Hs Hr H res Hx) as [M _].
  destruct (c11_error_token g ptx buf penv Hg Hb Hsw memo inline (S n) r st0 evs Hs H) as (st' & M' & E).
  rewrite M in M'. inv M'. eauto.
Qed.
Print Assumptions C11_generated_code_error_token.

(** ... with no hypothesis that the semantics has a result and no side condition on the emitter: for every grammar with a
    well-formedness certificate, memo table on or off, -inline on or off, every input and every earlier parser state -
    when the grammar as written rejects the input, every execution of the call Parse() makes returns false and leaves
    that token in maxToken, within the input (Proofs/ParseTop.v). *)
Theorem C11_generated_parser_error_token :
  forall g tab rank, wf_b g tab rank = true -> good_grammar g ->
  (forall r b, nth_error g r = Some (RBody b) -> ranges_ok b = true) ->
  grammar_alt2 g -> closed_names g ->
  forall ptx buf penv, good_buf buf ->
  forall memo inline rb st0,
    nth_error g 0 = Some rb -> rb <> RNil ->
    exists n res evs, peg_parse g ptx buf penv n 0 = Some (res, evs) /\
      (res = Fail ->
       forall out, xcall buf penv (mk_opts true memo inline g) (gen_fn g ptx inline) 0 (reset st0) out ->
         exists st', out = Ret false st' /\ maxtok st' = first_furthest evs /\ tok_ok (length buf) (maxtok st')).
Proof.
  intros g tab rank Hwf Hg Hro Ha Hc ptx buf penv Hbuf memo inline rb st0 Hr Hn.
  assert (Hne : g <> []) by (intros E; rewrite E in Hr; discriminate).
  destruct (c01_total g ptx buf penv tab rank 0 rb Hwf Hr Hn) as ([|n] & [res evs] & H); [discriminate|].
  exists (S n), res, evs. split; [exact H|]. intros -> out Hx.
  pose proof (OptTop.plain_good_switches g Hro) as Hs.
  destruct (generated_code_is_machine g ptx buf penv Hg Hbuf Hs memo inline n 0 st0 _ (CountInline.deep_table_all g inline Ha Hc)
              (slot_ok_start g inline) (reached_start g Hne) H out Hx) as [M _].
  destruct (c11_error_token g ptx buf penv Hg Hbuf Hs memo inline (S n) 0 st0 evs (slot_ok_start g inline) H) as (st' & M' & E).
  rewrite M in M'. inv M'. eauto.
Qed.
Print Assumptions C11_generated_parser_error_token.

(** Why the theorem above is stated without -switch: the error token is a fact about the attempt the parser makes, and
    the -switch parser makes another attempt.  An alternative that begins with lookahead - &R1 'x' - has first set {x};
    on "ab" the default parser tries it, the lookahead matches R1 over [0,2) and records that token as the furthest before
    'x' fails; the -switch parser dispatches on 'a', never enters the alternative and reports the zero token.  Verdict,
    prefix and tokens agree (C02); the error token does not, in the model and in the shipped generator alike (the
    message reads "near R1 (line 1 symbol 1 - line 1 symbol 3)" without -switch and "near Unknown (line 1 symbol 1 -
    line 1 symbol 1)" with it).  Each parser's token is the one C11 describes for ITS attempt (C11_error_token holds of
    the optimised tree too); "invariant under -switch" would be a strengthening of C11 and C02, and it is false: *)
Definition et_g : grammar :=
  [ RBody (ESeq [EAlt [ESeq [EAnd (EName 1); EChar 120]; ERange 104 110; ERange 111 119]; ENot EDot]);
    RBody (ESeq [EChar 97; EChar 98]) ]%Z.
Example C11_error_token_invariant_under_switch_refuted :
  wf_auto et_g = true /\ good_grammar_b et_g = true /\ grammar_alt2_b et_g = true /\ closed_names_b et_g = true /\
  exists s1 s2,
    machine et_g 9 [97; 98]%Z (std_penv [97; 98]%Z) true false 30 0 zero_state = Some (Ret false s1) /\
    machine (optimize et_g) 9 [97; 98]%Z (std_penv [97; 98]%Z) true false 30 0 zero_state = Some (Ret false s2) /\
    maxtok s1 = (1, (0, 2)) /\ maxtok s2 = (0, (0, 0)).
Proof. vm_compute. repeat split; try reflexivity. eexists _, _. repeat split; reflexivity. Qed.

(** For every rune list and every token with begin <= end <= number of runes (in particular the error
    token, by the theorem above; also the empty input, offset 0 and end of input), the message fields
    computed by translatePositions + Error() are: 1-based line = 1 + newlines before the offset,
    1-based column = 1 + distance from the start of that line, for begin and for end, and the quoted
    text is exactly the runes in [begin, end).  [Some] = the slice is in range (no panic). *)
Theorem C11_positions :
  forall buf t, tk_begin t <= tk_end t -> tk_end t <= length buf ->
    error_fields (buf ++ [endSymbol]) t =
      Some (tk_rule t, linecol buf (tk_begin t), linecol buf (tk_end t),
            firstn (tk_end t - tk_begin t) (skipn (tk_begin t) buf)).
Proof. exact error_fields_spec. Qed.
Print Assumptions C11_positions.

Example C11_positions_nonvacuous :
  error_fields ([97; 10; 98; 99; 10; 10; 100] ++ [endSymbol])%Z (7, (2, 6))
  = Some (7, (2, 1), (4, 1), [98; 99; 10; 10]%Z) /\
  error_fields ([] ++ [endSymbol]) (0, (0, 0)) = Some (0, (1, 1), (1, 1), []).
Proof. vm_compute. split; reflexivity. Qed.

Example C11_nonvacuous :
  mach_view (mach_of true ex_in_bad 0 zero_state) = Some (false, 0, [], (2, (0, 2))).
Proof. vm_compute. reflexivity. Qed.
