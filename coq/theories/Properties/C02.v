(** C02: -inline and -switch never change what the generated parser accepts or records. *)
From PegV Require Import Base.Tac Spec.Syntax Spec.Peg Spec.WF Model.Machine Model.SkipCheck Model.Optimize Model.Gen
  Model.Analyses Model.Emit Model.SEmit Model.Exec Proofs.FirstSound Proofs.OptSound Proofs.OptSwok Proofs.Top Proofs.OptTop Proofs.SEmitFile Proofs.EmitUse Proofs.OptClosed Proofs.ParseTop Properties.Example.
Local Open Scope nat_scope.

(** For one grammar term [g] (the tree the generator compiles), every combination of the memo and
    inline decisions gives the same verdict, consumed prefix and token sequence, from any earlier
    parser states.  With -switch off this is the whole -inline part of the property.  With -switch
    on, [g] is the optimised tree (switch nodes, skip-check flags): the statement, through
    C01_machine_is_peg, says that the emitted switch dispatch and the dropped first-character tests
    compute the PEG semantics of the optimised tree provided its switches are well guarded
    ([good_switches], an executable check re-evaluated for every grammar of the correspondence run). *)
Theorem C02_inline_invisible :
  forall g ptx buf penv, good_grammar g -> good_buf buf -> good_switches g ->
  forall memo memo' inline inline' n r st0 st0' rr,
    slot_ok g inline r -> slot_ok g inline' r -> peg_parse g ptx buf penv n r = Some rr ->
    exists b st1 st2,
      machine g ptx buf penv memo inline n r st0 = Some (Ret b st1) /\
      machine g ptx buf penv memo' inline' n r st0' = Some (Ret b st2) /\
      (b = true -> pos st1 = pos st2 /\ live st1 = live st2).
Proof.
  intros g ptx buf penv Hg Hb Hs memo memo' inline inline' n r st0 st0' rr S1 S2 H.
  destruct rr as [res evs].
  destruct (machines_agree g g ptx buf penv Hg Hs Hg Hs Hb memo inline memo' inline' n r st0 st0' res evs evs S1 S2 H H) as (b & s1 & s2 & R1 & R2 & A & _).
  exists b, s1, s2. auto.
Qed.
Print Assumptions C02_inline_invisible.

(** -switch, end to end.  [optimize] (Model/Optimize.v) is the -switch pass - first-character-set
    analysis to a fixed point, then the rewrite of ordered choices into guarded (switch) choices for
    the rules reachable from the first - and is compared structurally with the implementation's
    optimised tree for every grammar of the correspondence run.  For every grammar with a
    well-formedness certificate (wf_b: Ford's condition), whose analysis table is consistent
    (opt_ok_b, executable, re-evaluated per grammar), every input made of code points and every rule
    used as entry: the parser generated from the optimised tree and the one generated from the
    original tree, under any memo and inline decisions and from any earlier parser states, both
    terminate with the same verdict, consumed prefix and token sequence.  [good_switches (optimize g)]
    (executable) says that the case bodies may drop their first-character tests. *)
Theorem C02_switch_invisible :
  forall g tab rank, wf_b g tab rank = true -> opt_ok_b g = true ->
  good_grammar g -> good_grammar (optimize g) -> good_switches g -> good_switches (optimize g) ->
  forall ptx buf penv, good_buf buf -> valid_buf buf ->
  forall memo memo' inline inline' r rb st0 st0',
    nth_error g r = Some rb -> rb <> RNil ->
    slot_ok g inline r -> slot_ok (optimize g) inline' r ->
    exists n b st1 st2,
      machine g ptx buf penv memo inline n r st0 = Some (Ret b st1) /\
      machine (optimize g) ptx buf penv memo' inline' n r st0' = Some (Ret b st2) /\
      (b = true -> pos st1 = pos st2 /\ Machine.live st1 = Machine.live st2).
Proof. exact c02_switch_invisible. Qed.
Print Assumptions C02_switch_invisible.

(** ... and at the level of the generated statements (Model/SEmit.v under the goto semantics of Model/Exec.v, see C01):
    whatever the entry's function of the file generated from the OPTIMISED tree returns - under any memo / inline
    setting, from any earlier state - is the verdict, the offset and the token list of the semantics of the ORIGINAL
    tree; with C01_generated_code_every_execution for the original tree, the two files agree. *)
Theorem C02_generated_code_switch :
  forall g tab rank, wf_b g tab rank = true -> opt_ok_b g = true ->
  good_grammar (optimize g) -> good_switches (optimize g) ->
  forall ptx buf penv, good_buf buf -> valid_buf buf ->
  forall memo inline r rb st0,
    nth_error g r = Some rb -> rb <> RNil ->
    deep_table_b (optimize g) inline = true -> slot_ok (optimize g) inline r -> reached (count_rules (optimize g)) r = true ->
    exists n res evs, peg_parse g ptx buf penv n r = Some (res, evs) /\
      forall out, xcall buf penv (mk_opts true memo inline (optimize g)) (gen_fn (optimize g) ptx inline) r (reset st0) out ->
        match res with
        | Succ p f => exists st', out = Ret true st' /\ pos st' = p /\ Machine.live st' = Syntax.flat f
        | Fail => exists st', out = Ret false st'
        end.
Proof.
  intros g tab rank Hwf Hopt Hg' Hsw' ptx buf penv Hb Hv memo inline r rb st0 Hr Hn Hd Hs Hre.
  destruct (common_result g tab rank Hwf Hopt ptx buf penv Hv r rb Hr Hn) as ([|n] & res & evs & evs' & H & H'); [discriminate|].
  exists (S n), res, evs. split; [exact H|]. intros out Hx.
  pose proof (generated_code_every_execution (optimize g) ptx buf penv Hg' Hb Hsw' memo inline n r st0 _ Hd Hs Hre H' out Hx) as K.
  destruct res as [|p f]; [destruct K as (st' & E & _); eauto|exact K].
Qed.
Print Assumptions C02_generated_code_switch.

(** ... with no side condition on the analysis, on the optimised tree or on the emitter's bookkeeping: the pass introduces
    no rule reference ([optimize_closed_names]) and keeps every choice at two alternatives or more, so the optimised tree
    meets the emitter's fuel condition under either -inline setting (Proofs/OptClosed.v, Proofs/CountInline.v). *)
Theorem C02_generated_code_switch_unconditional :
  forall g tab rank, wf_b g tab rank = true -> good_grammar g ->
  (forall r b, nth_error g r = Some (RBody b) -> ranges_ok b = true) ->
  grammar_alt2 g -> closed_names g ->
  forall ptx buf penv, good_buf buf -> valid_buf buf ->
  forall memo inline r rb st0,
    nth_error g r = Some rb -> rb <> RNil ->
    slot_ok (optimize g) inline r -> reached (count_rules (optimize g)) r = true ->
    exists n res evs, peg_parse g ptx buf penv n r = Some (res, evs) /\
      forall out, xcall buf penv (mk_opts true memo inline (optimize g)) (gen_fn (optimize g) ptx inline) r (reset st0) out ->
        match res with
        | Succ p f => exists st', out = Ret true st' /\ pos st' = p /\ Machine.live st' = Syntax.flat f
        | Fail => exists st', out = Ret false st'
        end.
Proof.
  intros g tab rank Hwf Hg Hro Ha Hc ptx buf penv Hb Hv memo inline r rb st0 Hr Hn Hs Hre.
  destruct (parser_runs g tab rank Hwf Hg Hro Ha Hc ptx buf penv Hb Hv memo inline true r rb st0 Hr Hn Hs Hre)
    as (n & res & evs & evs' & b & st' & H & _ & _ & _ & _ & Hu & K).
  exists n, res, evs. split; [exact H|]. intros out Hx. rewrite (Hu _ Hx).
  destruct res as [|p f]; [destruct K as (-> & _)|destruct K as (-> & K)]; eauto.
Qed.
Print Assumptions C02_generated_code_switch_unconditional.

(** ... and so the parsers generated under ANY two option combinations - memo table on or off, -inline on or off,
    -switch on or off ([tree_of sw g]) - agree at the level of the statements peg writes: whatever the two entry
    functions return, from any two earlier states, is the same verdict and, on success, the same offset and the same
    token list.  No side condition beyond the grammar's well-formedness (Proofs/ParseTop.v). *)
Theorem C02_generated_parsers_agree :
  forall g tab rank, wf_b g tab rank = true -> good_grammar g ->
  (forall r b, nth_error g r = Some (RBody b) -> ranges_ok b = true) ->
  grammar_alt2 g -> closed_names g ->
  forall ptx buf penv, good_buf buf -> valid_buf buf ->
  forall memo1 inline1 sw1 memo2 inline2 sw2 rb st1 st2,
    nth_error g 0 = Some rb -> rb <> RNil ->
    forall out1 out2,
      xcall buf penv (mk_opts true memo1 inline1 (tree_of sw1 g)) (gen_fn (tree_of sw1 g) ptx inline1) 0 (reset st1) out1 ->
      xcall buf penv (mk_opts true memo2 inline2 (tree_of sw2 g)) (gen_fn (tree_of sw2 g) ptx inline2) 0 (reset st2) out2 ->
      exists b s1 s2, out1 = Ret b s1 /\ out2 = Ret b s2 /\ (b = true -> pos s1 = pos s2 /\ Machine.live s1 = Machine.live s2).
Proof. exact generated_parsers_agree. Qed.
Print Assumptions C02_generated_parsers_agree.

(** the pass keeps the references of a tree defined *)
Theorem C02_switch_keeps_references_defined :
  forall g, closed_names g -> closed_names (optimize g).
Proof. exact optimize_closed_names. Qed.
Print Assumptions C02_switch_keeps_references_defined.

(** The same without any side condition on the analysis or on the optimised tree: a grammar with a
    well-formedness certificate whose literals are code points and whose ranges are in order (no
    switch node yet) is all that is needed.  That the fixed-point iteration yields a consistent table,
    that the optimised tree has only code-point keys and that every switch it contains is well guarded
    - each case body may drop its first-character test - are theorems (Proofs/OptSwok.v); when the
    iteration does not stabilise within its bound the pass leaves the tree alone. *)
Theorem C02_switch_invisible_unconditional :
  forall g tab rank, wf_b g tab rank = true -> good_grammar g ->
  (forall r b, nth_error g r = Some (RBody b) -> ranges_ok b = true) ->
  forall ptx buf penv, good_buf buf -> valid_buf buf ->
  forall memo memo' inline inline' r rb st0 st0',
    nth_error g r = Some rb -> rb <> RNil ->
    slot_ok g inline r -> slot_ok (optimize g) inline' r ->
    exists n b st1 st2,
      machine g ptx buf penv memo inline n r st0 = Some (Ret b st1) /\
      machine (optimize g) ptx buf penv memo' inline' n r st0' = Some (Ret b st2) /\
      (b = true -> pos st1 = pos st2 /\ Machine.live st1 = Machine.live st2).
Proof.
  intros g tab rank Hwf Hg Hro ptx buf penv Hb Hv memo memo' inline inline' r rb st0 st0' Hr Hn Hs Hs'.
  destruct (optimize_result g tab rank Hwf Hro ptx buf penv r rb Hv Hr Hn) as (n & res & evs & evs' & H & H').
  destruct (machines_agree g (optimize g) ptx buf penv Hg (plain_good_switches g Hro) (optimize_good_grammar g Hg)
              (optimize_good_switches g tab rank Hwf Hro) Hb memo inline memo' inline' n r st0 st0' res evs evs' Hs Hs' H H')
    as (b & s1 & s2 & R1 & R2 & A & _).
  exists n, b, s1, s2. auto.
Qed.
Print Assumptions C02_switch_invisible_unconditional.

(** the switches built by the pass are always well guarded, and its keys are code points *)
Theorem C02_optimised_tree_well_guarded :
  forall g tab rank, wf_b g tab rank = true -> good_grammar g ->
  (forall r b, nth_error g r = Some (RBody b) -> ranges_ok b = true) ->
  good_switches (optimize g) /\ good_grammar (optimize g).
Proof.
  intros g tab rank Hwf Hg Hro. split; [exact (optimize_good_switches g tab rank Hwf Hro)|exact (optimize_good_grammar g Hg)].
Qed.
Print Assumptions C02_optimised_tree_well_guarded.

(** the semantic core of it: the optimised tree has exactly the results (verdict, prefix, forest) of
    the original one, in both directions *)
Theorem C02_rewrite_sound :
  forall g tab rank, wf_b g tab rank = true -> opt_ok_b g = true ->
  forall ptx buf penv, valid_buf buf ->
  (forall r n x, peg_parse g ptx buf penv n r = Some x ->
     exists m evs', peg_parse (optimize g) ptx buf penv m r = Some (fst x, evs')) /\
  (forall r m y, peg_parse (optimize g) ptx buf penv m r = Some y ->
     exists n evs, peg_parse g ptx buf penv n r = Some (fst y, evs)).
Proof.
  intros g tab rank Hwf Hopt ptx buf penv Hb. split.
  - exact (optimize_sound g tab rank Hwf Hopt ptx buf penv Hb).
  - exact (optimize_complete g tab rank Hwf Hopt ptx buf penv Hb).
Qed.
Print Assumptions C02_rewrite_sound.

(** the first-set analysis on its own: with a consistent table, an expression that succeeds having
    consumed did so on a character of its set, and a "must consume" expression never succeeds empty *)
Theorem C02_first_sets_sound :
  forall g T, t_ok_b g T = true -> forall ptx buf penv, (forall c, In c buf -> (0 <= c <= maxRune)%Z) ->
  forall n e, ranges_ok e = true -> fs_ok g ptx buf penv (fs T e) n e.
Proof. exact first_sound. Qed.
Print Assumptions C02_first_sets_sound.

(** non-vacuity: a grammar that the pass really rewrites (one ordered alternative kept in front of a
    three-way switch), with all side conditions true, parsed identically before and after *)
Definition opt_g : grammar :=
  [ RBody (ESeq [EName 1; ENot EDot]);
    RBody (EAlt [ESeq [EChar 97; EChar 120]; ESeq [EChar 97; EChar 121]; ESeq [ERange 98 99; EChar 121];
                 ESeq [EChar 100; EChar 122]; EPlus (EChar 101)]) ]%Z.
Example C02_switch_nonvacuous :
  wf_auto opt_g = true /\ opt_ok_b opt_g = true /\
  good_grammar_b opt_g = true /\ good_grammar_b (optimize opt_g) = true /\
  good_switches_b opt_g = true /\ good_switches_b (optimize opt_g) = true /\
  valid_buf_b [97; 121]%Z = true /\
  optimize opt_g <> opt_g /\
  verdict_of (peg_parse opt_g 9 [97; 121]%Z (std_penv [97; 121]%Z) 30 0) = Some (Some 2) /\
  verdict_of (peg_parse (optimize opt_g) 9 [97; 121]%Z (std_penv [97; 121]%Z) 30 0) = Some (Some 2) /\
  mach_view (machine (optimize opt_g) 9 [97; 121]%Z (std_penv [97; 121]%Z) true false 30 0 zero_state) =
  mach_view (machine opt_g 9 [97; 121]%Z (std_penv [97; 121]%Z) true false 30 0 zero_state).
Proof. vm_compute. repeat split; try reflexivity. discriminate. Qed.

(** non-vacuity of the unconditional code-level theorem: the same grammar meets its syntactic premises, the pass does
    rewrite it, and the rewritten tree meets the emitter's condition under both -inline settings *)
Example C02_code_unconditional_nonvacuous :
  wf_auto opt_g = true /\ good_grammar_b opt_g = true /\ grammar_alt2_b opt_g = true /\ closed_names_b opt_g = true /\
  forallb (fun rb => match rb with RBody b => ranges_ok b | _ => true end) opt_g = true /\
  closed_names_b (optimize opt_g) = true /\
  deep_table_b (optimize opt_g) false = true /\ deep_table_b (optimize opt_g) true = true /\
  reached (count_rules (optimize opt_g)) 0 = true.
Proof. vm_compute. repeat split; reflexivity. Qed.

(** non-vacuity: a tree with a well-guarded switch, run with a skip-check flag *)
Definition sw_g : grammar :=
  [ RBody (ESeq [ESwitch [([97], ESeq [EChar 97; EChar 120]); ([98; 99], ESeq [ERange 98 99; EChar 121])]
                          (ESeq [EChar 100; EChar 122]); ENot EDot]) ]%Z.
Example C02_nonvacuous :
  good_switches_b sw_g = true /\ good_grammar_b sw_g = true /\
  verdict_of (peg_parse sw_g 9 [99; 121]%Z (std_penv [99; 121]%Z) 30 0) = Some (Some 2) /\
  mach_view (machine sw_g 9 [99; 121]%Z (std_penv [99; 121]%Z) true false 30 0 zero_state) = Some (true, 2, [(0, (0, 2))], (0, (0, 2))).
Proof. vm_compute. repeat split; reflexivity. Qed.
