(** C10: documented .peg syntax means what the docs say; malformed text is rejected.
    Coq decides: the stack discipline of the tree builder for every well-formed surface expression, the
    escape table, and - for every expression as written, with any layout and any spelling of its characters -
    that the front end's own grammar (Generated/PegPeg.v, regenerated from peg.peg on every run) reads the
    text back and makes exactly the builder calls that build the tree the expression denotes; the same for a
    whole file (header comments, package, imports, parser type and state, the rules with either arrow); that
    the families of text below that are not grammars are refused; and that every text that is accepted,
    whatever it is, takes the builder to a package name, a parser type with its state and at least one rule.
    That other malformed text is refused rather than misread, and that the Go builder does what Model/Front.v
    and Reader/FileBridge.v say it does, are decided by the correspondence run. *)
From PegV Require Import Base.Tac Spec.Syntax Spec.Peg Proofs.PegRel Model.Calls Model.Front Proofs.FrontProofs
  Generated.PegPeg Reader.Base Reader.Lex Reader.Chars Reader.Lits Reader.Expr Reader.Bridge Reader.BridgeDefs Reader.File Reader.FileBridge Reader.Reject Reader.RejectImport Reader.Safe Reader.Top Reader.Shipped.
From PegV Require Import Model.Machine Model.Gen Proofs.OptSound Proofs.Top.
Open Scope Z_scope.

(** For every surface expression without empty literals / classes / lists, the builder calls peg.peg's
    actions make for it (flattening sequences and choices, expanding double-quoted letters and [[...]]
    ranges into lower/upper choices, [^...] into !class followed by dot) never pop an empty stack and
    leave exactly one node on top of whatever was on the stack: nesting and precedence are preserved. *)
Theorem C10_builder_stack_discipline :
  forall t, sx_ok t = true -> exists e, forall stk, brun (ops_of t) stk = Some (e :: stk).
Proof. exact builder_stack_discipline. Qed.
Print Assumptions C10_builder_stack_discipline.

(** \0x escapes: every spelling whose value is a Unicode scalar value denotes that code point *)
Theorem C10_hex_escapes :
  forall ds, valid_scalar (digits_value 16 ds) -> add_hexa ds = digits_value 16 ds.
Proof. exact hex_exact. Qed.
Print Assumptions C10_hex_escapes.

(** octal escapes \0 .. \377 (one, two and three digits: 8 + 64 + 256 spellings) denote their value *)
Theorem C10_octal_escapes :
  forall ds, In ds octal_spellings -> add_octal ds = digits_value 8 ds.
Proof.
  intros ds H. apply Z.eqb_eq. exact (proj1 (forallb_forall _ _) octal_exact ds H).
Qed.
Print Assumptions C10_octal_escapes.

(** The reader, expression level.  [e] is an expression as written: every token with the blanks, line ends and
    comments behind it, characters raw or as one of the documented escapes (either letter case), \0x hex or
    octal; [wf e] says that the precedence levels nest (alternation < sequence < prefix < suffix < primary),
    that braces in action text balance and that each spelling is one the scanner reads back as written (a digit
    run is not followed by another digit, a name is not glued to the next one ...).  Then peg.peg's own rule
    tree, under the reference semantics, accepts exactly the text [show e] from the rule Expression, the calls
    its actions make while Execute() walks the derivation are [xcalls e], and the tree builder, given those
    calls, leaves the single node [elab (erase e)] - the tree Model/Front.v says the construct denotes:
    'x' case-sensitive, "x" and [[x]] both cases, [^...] as !class followed by dot, escapes by their code point,
    both arrow and comment spellings irrelevant (they are layout), nesting by precedence. *)
Theorem C10_reader_expression :
  forall (nm ak : list rune -> nat) penv e, wf e ->
  exists n f evs tree,
    peg_ev pegpeg_d pegpeg_d_ptx (show e) penv n (EName pr_Expression) 0 = Some (Succ (length (show e)) f, evs) /\
    calls_of_forest (show e) f = xcalls e /\
    build nm ak (xcalls e) [] = Some [tree] /\ elab (erase nm ak e) = Some tree.
Proof. exact reader_expression. Qed.
Print Assumptions C10_reader_expression.

(** ... and inside any text: wherever [show e] stands in the input, followed by something that cannot continue
    it (no suffix operator, no slash, nothing that starts a Prefix, no arrow, no letter glued to a final name) *)
Theorem C10_reader_expression_in_context :
  forall (nm ak : list rune -> nat) penv buf e rest p,
  wf e -> At buf p (show e ++ rest) -> fol buf penv (p + length (show e))%nat rest ->
  (glue e = true -> not_icont_head rest) ->
  ko pegpeg_d pegpeg_d_ptx buf penv (EName pr_Prefix) (p + length (show e))%nat ->
  ko pegpeg_d pegpeg_d_ptx buf penv (EName pr_Slash) (p + length (show e))%nat -> head_ne 47 rest ->
  exists n f evs tree,
    peg_ev pegpeg_d pegpeg_d_ptx buf penv n (EName pr_Expression) p = Some (Succ (p + length (show e))%nat f, evs) /\
    calls_of_forest buf f = xcalls e /\
    (forall stk, build nm ak (xcalls e) stk = Some (tree :: stk)) /\ elab (erase nm ak e) = Some tree.
Proof. exact reader_expression_in_context. Qed.
Print Assumptions C10_reader_expression_in_context.

(** The reader, file level.  [f] is a grammar file as written: comments and blank runs before "package", the
    package name, imports (single or grouped, with or without alias), "type" Name "Peg" { state }, and one or more
    rules  name arrow expression  with either arrow spelling, each token with its layout.  peg.peg's own rule
    tree reads all of [fshow f] from the rule Grammar, its actions make the calls [fcalls f], and the builder
    (expression stack + the node under construction, tree/peg.go AddRule ... AddExpression, AddPeg/AddState)
    is left with exactly the nodes the file denotes, every rule with the tree of its expression. *)
Theorem C10_reader_file :
  forall (nm ak : list rune -> nat) penv f, file_ok f ->
  exists n fo evs nodes,
    peg_ev pegpeg_d pegpeg_d_ptx (fshow f) penv n (EName pr_Grammar) 0 = Some (Succ (length (fshow f)) fo, evs) /\
    calls_of_forest (fshow f) fo = fcalls f /\
    frun nm ak (fcalls f) finit = Some {| back := nodes; pend := None; stk := []; pegn := None |} /\
    file_nodes nm ak f = Some nodes.
Proof. exact reader_file. Qed.
Print Assumptions C10_reader_file.

(** ... and for the parser that is shipped: the machine (Model/Machine.v, the model of the generated Go code that
    C01-C06 tie to the implementation) of the -inline -switch tree the front end is generated from, memoised or
    not, accepts the text of every well-formed file whose characters are code points other than the end symbol;
    Execute() over its tokens makes the calls of the file.  (reader_file + optimize_sound + the machine theorems,
    at the regenerated trees.) *)
Theorem C10_reader_file_shipped :
  forall (nm ak : list rune -> nat) penv f memo inline st0,
  file_ok f -> good_buf (fshow f) -> valid_buf (fshow f) -> slot_ok pegpeg_is inline 0 ->
  exists n st' nodes,
    machine pegpeg_is pegpeg_is_ptx (fshow f) penv memo inline n 0 st0 = Some (Ret true st') /\
    calls_of_tokens pegpeg_is pegpeg_is_ptx (fshow f) (live st') = fcalls f /\
    frun nm ak (fcalls f) finit = Some {| back := nodes; pend := None; stk := []; pegn := None |} /\
    file_nodes nm ak f = Some nodes.
Proof. exact reader_file_shipped. Qed.
Print Assumptions C10_reader_file_shipped.

(** Three families of text that is not a grammar, each refused by peg.peg's own rule tree under the reference
    semantics (the rule Grammar fails) and hence, by [C10_rejected_by_shipped_parser], by the parser that is
    shipped (Parse() returns an error): a well-formed file followed by a character that starts nothing - a closing
    bracket, '=', ',', ';', '|', a non-ASCII character ... -, by a literal, group, capture, action or class that is
    opened and never closed (a rule ends only before another rule or at the end of the text); a text whose first
    token after comments and blank lines is not the word "package" (the empty text and a text of comments only
    included); a text with no rule behind the parser type. *)
Theorem C10_rejects_trailing_text :
  forall penv f c m, file_ok f -> junk_head c = true ->
  exists n evs, peg_ev pegpeg_d pegpeg_d_ptx (fshow f ++ c :: m) penv n (EName pr_Grammar) 0 = Some (Fail, evs).
Proof. intros penv f c m Hf Hj. exact (grammar_rejects_trailing _ penv f c m Hf Hj eq_refl). Qed.
Print Assumptions C10_rejects_trailing_text.

(** ... or by a literal that is opened and never closed (a single or a double quote with no second one in the rest
    of the text): however the characters behind the quote are read, the closing quote is not found; every parsing
    expression of the rule tree has a result (Proofs/Total.v), so nothing is assumed about them. *)
Theorem C10_rejects_unclosed_literal :
  forall penv f c s, file_ok f -> c = 39 \/ c = 34 -> ~ In c s ->
  exists n evs, peg_ev pegpeg_d pegpeg_d_ptx (fshow f ++ c :: s) penv n (EName pr_Grammar) 0 = Some (Fail, evs).
Proof. intros penv f c s Hf Hc Hn. exact (grammar_rejects_unclosed_quote _ penv f c s Hf Hc Hn eq_refl). Qed.
Print Assumptions C10_rejects_unclosed_literal.

(** ... or by a group, a capture, an action or a class that is opened and never closed *)
Theorem C10_rejects_unclosed_bracket :
  forall penv f o s, file_ok f ->
  (o = 40 /\ ~ In 41 s) \/ (o = 60 /\ ~ In 62 s /\ head_ne 45 s) \/ (o = 123 /\ ~ In 125 s) \/ (o = 91 /\ ~ In 93 s) ->
  exists n evs, peg_ev pegpeg_d pegpeg_d_ptx (fshow f ++ o :: s) penv n (EName pr_Grammar) 0 = Some (Fail, evs).
Proof. intros penv f o s Hf Ho. exact (grammar_rejects_unclosed_bracket _ penv f o s Hf Ho eq_refl). Qed.
Print Assumptions C10_rejects_unclosed_bracket.

(** ... or by a prefix operator with nothing to apply to: & or ! and then only blanks and comments to the end *)
Theorem C10_rejects_dangling_prefix :
  forall penv f o l, file_ok f -> o = 38 \/ o = 33 -> lay l ->
  exists n evs, peg_ev pegpeg_d pegpeg_d_ptx (fshow f ++ o :: l) penv n (EName pr_Grammar) 0 = Some (Fail, evs).
Proof. intros penv f o l Hf Ho Hl. exact (grammar_rejects_dangling_prefix _ penv f o l Hf Ho Hl eq_refl). Qed.
Print Assumptions C10_rejects_dangling_prefix.

Theorem C10_rejects_text_without_package :
  forall penv hdr tl, header_ok hdr tl -> stop tl -> (forall r, tl <> kw_package ++ r) ->
  exists n evs, peg_ev pegpeg_d pegpeg_d_ptx (flat_map hshow hdr ++ tl) penv n (EName pr_Grammar) 0 = Some (Fail, evs).
Proof. intros penv hdr tl Hh Hst N. exact (grammar_rejects_no_package _ penv hdr tl Hh Hst N eq_refl). Qed.
Print Assumptions C10_rejects_text_without_package.

Theorem C10_rejects_text_without_rules :
  forall penv f J, head_ok f -> stop J -> (forall c r, J = c :: r -> is_istart c = false) ->
  exists n evs, peg_ev pegpeg_d pegpeg_d_ptx (head_text f ++ J) penv n (EName pr_Grammar) 0 = Some (Fail, evs).
Proof. intros penv f J Hf HJ Hn. exact (grammar_rejects_no_rules _ penv f J Hf HJ Hn eq_refl). Qed.
Print Assumptions C10_rejects_text_without_rules.

Theorem C10_rejected_by_shipped_parser :
  forall penv buf memo inline st0,
  (exists n evs, peg_ev pegpeg_d pegpeg_d_ptx buf penv n (EName pr_Grammar) 0 = Some (Fail, evs)) ->
  good_buf buf -> valid_buf buf -> slot_ok pegpeg_is inline 0 ->
  exists n st', machine pegpeg_is pegpeg_is_ptx buf penv memo inline n 0 st0 = Some (Ret false st').
Proof. exact rejected_shipped. Qed.
Print Assumptions C10_rejected_by_shipped_parser.

(** non-vacuity: the sample file followed by ")" and by "'ab" and by "('a' x" ; "type T Peg {}" alone; the sample's head with nothing behind *)
Example C10_reject_nonvacuous :
  junk_head 41 = true /\ junk_head 61 = true /\ junk_head 233 = true /\ junk_head 97 = false /\ junk_head 32 = false /\
  fst (match peg_ev pegpeg_d pegpeg_d_ptx (fshow sample_file ++ [41]) (fun _ _ => false) 1500 (EName pr_Grammar) 0 with
       | Some r => r | None => (Succ 0 [], []) end) = Fail /\
  fst (match peg_ev pegpeg_d pegpeg_d_ptx (fshow sample_file ++ [40; 39; 97; 39; 32; 120; 10]) (fun _ _ => false) 1500 (EName pr_Grammar) 0 with
       | Some r => r | None => (Succ 0 [], []) end) = Fail /\
  fst (match peg_ev pegpeg_d pegpeg_d_ptx (fshow sample_file ++ [39; 97; 98; 10]) (fun _ _ => false) 1500 (EName pr_Grammar) 0 with
       | Some r => r | None => (Succ 0 [], []) end) = Fail /\
  fst (match peg_ev pegpeg_d pegpeg_d_ptx [116; 121; 112; 101; 32; 84; 32; 80; 101; 103; 32; 123; 125] (fun _ _ => false) 300 (EName pr_Grammar) 0 with
       | Some r => r | None => (Succ 0 [], []) end) = Fail /\
  fst (match peg_ev pegpeg_d pegpeg_d_ptx (head_text sample_file) (fun _ _ => false) 1500 (EName pr_Grammar) 0 with
       | Some r => r | None => (Succ 0 [], []) end) = Fail.
Proof. vm_compute. repeat split; reflexivity. Qed.

(** Whatever text the rule Grammar accepts - one that Reader/Defs.v describes or any other -, the builder calls its
    actions make go through: no call pops an empty expression stack, AddRange / AddDoubleRange find two character
    nodes, AddCharacter / AddDoubleCharacter get exactly one character, a rule is opened and closed in turn; at the
    end there is a package name, the parser type with its state, at least one rule, and nothing half-built.  (A
    stack-effect analysis of the rule tree, proved sound for every derivation - Reader/Safe.v - with the table of
    rule effects computed and checked by evaluation on the regenerated tree.)  Since the builder runs only after
    the whole text was accepted, "never a crash, never an empty parser" holds for every text. *)
Theorem C10_accepted_text_builds_a_grammar :
  forall (nm ak : list rune -> nat) penv buf n p f evs,
  peg_ev pegpeg_d pegpeg_d_ptx buf penv n (EName pr_Grammar) 0 = Some (Succ p f, evs) ->
  exists s', frun nm ak (calls_of_forest buf f) finit = Some s' /\ stk s' = [] /\ pend s' = None /\ pegn s' = None /\
    (exists pk, In (NPackage pk) (back s')) /\ (exists name st, In (NPeg name st) (back s')) /\
    (exists name e, In (NRule name e) (back s')).
Proof. intros nm ak penv buf. exact (accepted_text_builds nm ak buf penv). Qed.
Print Assumptions C10_accepted_text_builds_a_grammar.

(** ... and for the parser that is shipped, on EVERY text: whatever runes it is given (code points other than the end
    symbol), the machine of the -inline -switch tree terminates, and either Parse() reports an error or Execute()'s
    calls over the recorded tokens build a well-formed grammar.  Never a crash, never a silently empty parser. *)
Theorem C10_every_text_shipped :
  forall (nm ak : list rune -> nat) penv buf memo inline st0,
  good_buf buf -> valid_buf buf -> slot_ok pegpeg_is inline 0 ->
  exists n b st', machine pegpeg_is pegpeg_is_ptx buf penv memo inline n 0 st0 = Some (Ret b st') /\
    (b = true ->
     exists s', frun nm ak (calls_of_tokens pegpeg_is pegpeg_is_ptx buf (live st')) finit = Some s' /\
       stk s' = [] /\ pend s' = None /\ pegn s' = None /\
       (exists pk, In (NPackage pk) (back s')) /\ (exists name st, In (NPeg name st) (back s')) /\
       (exists name e, In (NRule name e) (back s'))).
Proof. exact every_text_shipped. Qed.
Print Assumptions C10_every_text_shipped.

(** the analysis is not vacuous: the table gives an effect to every rule but Grammar and Definition (whose
    AddRule / AddExpression / AddPeg / AddState protocol the theorem handles itself), and an expression pushes one node *)
Example C10_effects_nonvacuous :
  length (filter (fun r => match nth_error pegpeg_d r, eff_tab r with Some (RBody _), None => true | _, _ => false end) (seq 0 (length pegpeg_d))) = 2%nat /\
  eff_tab pr_Expression = Some (mkeff [] [KAny] false (Some false)) /\
  eff_tab pr_Char = Some (mkeff [] [KChr] false (Some false)).
Proof. vm_compute. repeat split; reflexivity. Qed.

(** a text that stops inside the parser's state - "type T Peg {" opened and never closed - is refused *)
Theorem C10_rejects_unclosed_state :
  forall penv f T, head_ok f -> ~ In 125 T ->
  exists n evs, peg_ev pegpeg_d pegpeg_d_ptx (pre_text f ++ kw_Peg ++ f_s3 f ++ 123 :: T) penv n (EName pr_Grammar) 0 = Some (Fail, evs).
Proof. intros penv f T Hf HT. exact (grammar_rejects_unclosed_state _ penv f T Hf HT eq_refl). Qed.
Print Assumptions C10_rejects_unclosed_state.

(** an import block that is opened and never closed - after the package clause and any number of well-formed imports:
    `import`, layout, `(` and a text without `)` - is refused (Reader/RejectImport.v: MultiImport finds no closing
    parenthesis however far it reads, SingleImport cannot start at `(`, Import* ends before this import, and the keyword
    `type` does not match `import`).  The shape of the change stored as seeded/C17-alt-norestore-after-rule-ref, which
    made the shipped front end accept such a text. *)
Theorem C10_rejects_unclosed_import :
  forall penv hdr spkg pkg s1 imps sp T,
    header_ok hdr [112] -> lay spkg -> spkg <> [] -> ident_ok pkg = true -> lay s1 -> s1 <> [] ->
    Forall imp_ok imps -> lay sp -> ~ In 41 T ->
    exists n evs, peg_ev pegpeg_d pegpeg_d_ptx
      (flat_map hshow hdr ++ kw_package ++ spkg ++ pkg ++ s1 ++ flat_map impshow imps ++ kw_import ++ sp ++ 40 :: T)
      penv n (EName pr_Grammar) 0 = Some (Fail, evs).
Proof.
  intros penv hdr spkg pkg s1 imps sp T H1 H2 H3 H4 H5 H6 H7 H8 H9.
  exact (grammar_rejects_unclosed_import _ penv hdr spkg pkg s1 imps sp T H1 H2 H3 H4 H5 H6 H7 H8 H9 eq_refl).
Qed.
Print Assumptions C10_rejects_unclosed_import.

(** non-vacuity: "package p\n\nimport (\n\"a\" \n" followed by the rest of a file without a closing parenthesis *)
Example C10_unclosed_import_nonvacuous :
  exists n evs, peg_ev pegpeg_d pegpeg_d_ptx
    ([] ++ kw_package ++ [32] ++ [112] ++ [10; 10] ++ [] ++ kw_import ++ [32] ++ 40 :: [10; 34; 97; 34; 32; 10; 116; 121; 112; 101; 32; 84; 32; 80; 101; 103; 32; 123; 125; 10; 83; 32; 60; 45; 32; 39; 97; 39; 10])
    (fun _ _ => true) n (EName pr_Grammar) 0 = Some (Fail, evs).
Proof. exists 400%nat. eexists. vm_compute. reflexivity. Qed.

(** after the package clause and any number of well-formed imports, a text that begins with neither `import` nor `type`
    (nor layout, which the clause before it has consumed) is refused: a grammar whose parser type is missing - the rules
    straight after the package clause -, a misspelt keyword, anything else (Reader/RejectImport.v). *)
Theorem C10_rejects_missing_type :
  forall penv hdr spkg pkg s1 imps rest,
    header_ok hdr [112] -> lay spkg -> spkg <> [] -> ident_ok pkg = true -> lay s1 -> s1 <> [] ->
    Forall imp_ok imps -> stop rest -> (forall r, rest <> kw_import ++ r) -> (forall r, rest <> kw_type ++ r) ->
    exists n evs, peg_ev pegpeg_d pegpeg_d_ptx
      (flat_map hshow hdr ++ kw_package ++ spkg ++ pkg ++ s1 ++ flat_map impshow imps ++ rest)
      penv n (EName pr_Grammar) 0 = Some (Fail, evs).
Proof.
  intros penv hdr spkg pkg s1 imps rest H1 H2 H3 H4 H5 H6 H7 H8 H9 H10.
  exact (grammar_rejects_missing_type _ penv hdr spkg pkg s1 imps rest H1 H2 H3 H4 H5 H6 H7 H8 H9 H10 eq_refl).
Qed.
Print Assumptions C10_rejects_missing_type.

(** non-vacuity: "package p\n\nS <- 'a'\n" - the rules straight after the package clause *)
Example C10_missing_type_nonvacuous :
  exists n evs, peg_ev pegpeg_d pegpeg_d_ptx
    ([] ++ kw_package ++ [32] ++ [112] ++ [10; 10] ++ [] ++ [83; 32; 60; 45; 32; 39; 97; 39; 10])
    (fun _ _ => true) n (EName pr_Grammar) 0 = Some (Fail, evs).
Proof. exists 200%nat. eexists. vm_compute. reflexivity. Qed.

(** the parser type without its `Peg` keyword: after `type`, layout, a name and layout comes a text that does not begin with
    `Peg` (Reader/RejectImport.v) *)
Theorem C10_rejects_missing_Peg :
  forall penv f rest, head_ok f -> stop rest -> (forall r, rest <> kw_Peg ++ r) ->
  exists n evs, peg_ev pegpeg_d pegpeg_d_ptx (pre_text f ++ rest) penv n (EName pr_Grammar) 0 = Some (Fail, evs).
Proof. intros penv f rest Hf Hs N. exact (grammar_rejects_missing_Peg _ penv f rest Hf Hs N eq_refl). Qed.
Print Assumptions C10_rejects_missing_Peg.

(** `import` followed by something that can start neither an import block nor an import name - single quotes, angle
    brackets, a digit, the end of the text (Reader/RejectImport.v) *)
Theorem C10_rejects_bad_import :
  forall penv hdr spkg pkg s1 imps sp T,
    header_ok hdr [112] -> lay spkg -> spkg <> [] -> ident_ok pkg = true -> lay s1 -> s1 <> [] ->
    Forall imp_ok imps -> lay sp -> stop T ->
    (forall c r, T = c :: r -> c <> 40 /\ is_istart c = false /\ c <> 34) ->
    exists n evs, peg_ev pegpeg_d pegpeg_d_ptx
      (flat_map hshow hdr ++ kw_package ++ spkg ++ pkg ++ s1 ++ flat_map impshow imps ++ kw_import ++ sp ++ T)
      penv n (EName pr_Grammar) 0 = Some (Fail, evs).
Proof.
  intros penv hdr spkg pkg s1 imps sp T H1 H2 H3 H4 H5 H6 H7 H8 H9 H10.
  exact (grammar_rejects_bad_import _ penv hdr spkg pkg s1 imps sp T H1 H2 H3 H4 H5 H6 H7 H8 H9 H10 eq_refl).
Qed.
Print Assumptions C10_rejects_bad_import.

(** non-vacuity: "package p\n\nimport 'fmt'\n..." *)
Example C10_bad_import_nonvacuous :
  exists n evs, peg_ev pegpeg_d pegpeg_d_ptx
    ([] ++ kw_package ++ [32] ++ [112] ++ [10; 10] ++ [] ++ kw_import ++ [32] ++ [39; 102; 109; 116; 39; 10; 116; 121; 112; 101; 32; 84; 32; 80; 101; 103; 32; 123; 125; 10; 83; 32; 60; 45; 32; 39; 97; 39; 10])
    (fun _ _ => true) n (EName pr_Grammar) 0 = Some (Fail, evs).
Proof. exists 200%nat. eexists. vm_compute. reflexivity. Qed.

(** the lexical layer on its own: any layout is skipped; every spelling of a character is read as its call *)
Theorem C10_reader_spacing :
  forall buf penv s rest p t, lay s -> stop rest -> At buf p (s ++ rest) ->
  C buf penv (EName pr_Spacing) p (p + length s)%nat [] t t.
Proof. exact spacing_ok. Qed.
Print Assumptions C10_reader_spacing.
Theorem C10_reader_char :
  forall buf penv k rest p t, kvalid k = true -> kfollow k rest = true -> At buf p (kshow k ++ rest) ->
  exists t', C buf penv (EName pr_Char) p (p + length (kshow k))%nat [kcall false k] t t'.
Proof. exact char_ok. Qed.
Print Assumptions C10_reader_char.

(** non-vacuity of the reader theorems:  a 'x\n\0x41'* ![a-z\12] <. {x{}}> &{t} () #c (newline) "A" / (newline)
    is well formed *)
Example C10_reader_nonvacuous :
  wf sample /\ length (show sample) = 53%nat /\
  (* ... and the executable semantics, run on that text, computes what the theorem says *)
  match peg_ev pegpeg_d pegpeg_d_ptx (show sample) (fun _ _ => false) 300 (EName pr_Expression) 0 with
  | Some (Succ p f, _) => Some (p, calls_of_forest (show sample) f)
  | _ => None
  end = Some (53%nat, xcalls sample).
Proof. split; [exact sample_wf|split; vm_compute; reflexivity]. Qed.

Example C10_reader_file_nonvacuous :
  file_ok sample_file /\
  match peg_ev pegpeg_d pegpeg_d_ptx (fshow sample_file) (fun _ _ => false) 1500 (EName pr_Grammar) 0 with
  | Some (Succ p f, _) => Some (p, calls_of_forest (fshow sample_file) f)
  | _ => None
  end = Some (length (fshow sample_file), fcalls sample_file).
Proof. split; [exact sample_file_ok|vm_compute; reflexivity]. Qed.

(** non-vacuity: ("ab" / [^x-z\0x41]) 'c'   flattens into the enclosing sequence only where addList does *)
Example C10_nonvacuous :
  elab (Front.XSeq [Front.XGroup (Front.XAlt [Front.XILit [SC 97; SC 98]; Front.XClass true false [CRange (SC 120) (SC 122); CChar (SHex [4; 1])]] false); Front.XLit [SC 99]])
  = Some (ESeq [EAlt [ESeq [EAlt [EChar 97; EChar 65]; EAlt [EChar 98; EChar 66]];
                      ESeq [ENot (EAlt [ERange 120 122; EChar 65]); EDot]]; EChar 99]) /\
  length octal_spellings = 328%nat /\ add_octal [3; 7; 7] = 255.
Proof. vm_compute. repeat split; reflexivity. Qed.
