(** Literals and classes: a guarded list of items between delimiters. *)
From PegV Require Import Base.Tac Base.ListX Spec.Syntax Spec.Peg Proofs.PegRel Model.Calls Generated.PegPeg Reader.Base Reader.Lex Reader.Chars.
Local Open Scope Z_scope.

Lemma kshow_head k : exists m, kshow k = khead k :: m.
Proof. destruct k; cbn; eauto. Qed.

Lemma lit_item_ok_iff q k rest : lit_item_ok q k rest = true <-> kvalid k = true /\ khead k <> q /\ kfollow k rest = true.
Proof. unfold lit_item_ok. rewrite !andb_true_iff, negb_true_iff, Z.eqb_neq. tauto. Qed.
Lemma item_okb_char k rest : item_okb (IChar k) rest = true <->
  kvalid k = true /\ khead k <> 93 /\ kfollow k rest = true /\ head_is 45 rest = false.
Proof. cbn [item_okb]. rewrite !andb_true_iff, !negb_true_iff, Z.eqb_neq. tauto. Qed.
Lemma item_okb_range lo hi rest : item_okb (IRange lo hi) rest = true <->
  kvalid lo = true /\ khead lo <> 93 /\ kfollow lo (45 :: kshow hi ++ rest) = true /\ kvalid hi = true /\ kfollow hi rest = true.
Proof. cbn [item_okb]. rewrite !andb_true_iff, negb_true_iff, Z.eqb_neq. tauto. Qed.

(** the loop  (!guard item sep)*  over a list of items, with [eg], [ei], [ea] for guard, item and sep *)
Section Star.
Variable buf : list rune.
Variable penv : nat -> nat -> bool.
Notation At := (At buf).
Notation C := (C buf penv).
Notation ko := (ko pegpeg_d pegpeg_d_ptx buf penv).
Notation ok := (ok pegpeg_d pegpeg_d_ptx buf penv).

Variable A : Type.
Variable show : A -> list rune.
Variable cl : A -> list call.
Variable okb : A -> list rune -> bool.
Variables eg ei ea : expr.
Variable sep : list call.
Variable close : list rune.
Hypothesis Hitem : forall a rest p t, okb a rest = true -> At p (show a ++ rest) ->
  ko eg p /\ exists t', C ei p (p + length (show a))%nat (cl a) t t'.
Hypothesis Hsep : forall p t, C ea p p sep t t.
Hypothesis Hclose : forall p after, At p (close ++ after) -> exists p' f, ok eg p p' f.

Notation shows := (shows A show).
Notation items_ok := (items_ok A show okb).

Lemma items_none p after es : At p (close ++ after) -> ko (ESeq (ENot eg :: es)) p.
Proof. intros Hat. destruct (Hclose _ _ Hat) as (p' & f & Ho). apply ko_seq. apply kos_head. eapply ko_not. exact Ho. Qed.

Lemma items_star l after p t : items_ok l (close ++ after) = true -> At p (shows l ++ close ++ after) ->
  exists t', C (EStar (ESeq [ENot eg; ei; ea])) p (p + length (shows l))%nat (flat_map (fun a => cl a ++ sep) l) t t'.
Proof.
  apply (C_star_items buf penv show (fun a => cl a ++ sep) (fun l => items_ok l (close ++ after) = true)).
  - intros a l' q t0 Hok Hat. cbn [items_ok] in Hok. apply andb_true_iff in Hok. destruct Hok as [Ha Hl]. split; [exact Hl|].
    destruct (Hitem a _ q t0 Ha Hat) as [Hk [t1 Hi]]. exists t1.
    eapply C_eq; [apply C_seq; eapply Cs_cons; [apply C_not; exact Hk|eapply Cs_cons; [exact Hi|eapply Cs_cons; [apply Hsep|apply Cs_nil]]]
                 |reflexivity|cbn [app]; rewrite app_nil_r; reflexivity|reflexivity].
  - intros q _ Hat. exact (items_none q after _ Hat).
Qed.

Lemma items_first a rest p t : okb a rest = true -> At p (show a ++ rest) ->
  exists t', C (ESeq [ENot eg; ei]) p (p + length (show a))%nat (cl a) t t'.
Proof.
  intros Ha Hat. destruct (Hitem a _ p t Ha Hat) as [Hk [t1 Hi]]. exists t1.
  eapply C_eq; [apply C_seq; eapply Cs_cons; [apply C_not; exact Hk|eapply Cs_cons; [exact Hi|apply Cs_nil]]|reflexivity|cbn [app]; rewrite app_nil_r; reflexivity|reflexivity].
Qed.

End Star.

Section Lit.
Variable buf : list rune.
Variable penv : nat -> nat -> bool.
Notation At := (At buf).
Notation C := (C buf penv).
Notation ko := (ko pegpeg_d pegpeg_d_ptx buf penv).
Notation ok := (ok pegpeg_d pegpeg_d_ptx buf penv).

Lemma lit_item (dbl : bool) k rest p t : lit_item_ok (quote_of dbl) k rest = true -> At p (kshow k ++ rest) ->
  ko (EChar (quote_of dbl)) p /\
  exists t', C (EName (if dbl then pr_DoubleChar else pr_Char)) p (p + length (kshow k))%nat [kcall dbl k] t t'.
Proof.
  intros Hok Hat. apply lit_item_ok_iff in Hok. destruct Hok as (Hv & Hq & Hf).
  split.
  - destruct (kshow_head k) as [m Em]. rewrite Em in Hat. cbn [app] in Hat.
    eapply ko_char_at; [exact Hat|]. intros c' s' E. inv E. lia.
  - eapply xchar_ok; eassumption.
Qed.
Lemma quote_close (dbl : bool) p after : At p ([quote_of dbl] ++ after) -> exists p' f, ok (EChar (quote_of dbl)) p p' f.
Proof. intros Hat. exists (S p), []. apply ok_char. eapply At_head. exact Hat. Qed.

Theorem literal_ok (dbl : bool) ks s rest p t :
  chars_ok (quote_of dbl) ks (quote_of dbl :: s ++ rest) = true -> lay s -> stop rest ->
  At p (quote_of dbl :: kshows ks ++ quote_of dbl :: s ++ rest) ->
  exists t', C (EName pr_Literal) p (p + 2 + length (kshows ks) + length s)%nat (lit_calls dbl ks) t t'.
Proof.
  intros Hok Hl St Hat. at1 Hat as A1.
  destruct ks as [|k ks'].
  - (* empty literal: a nil node *)
    cbn [kshows flat_map app length] in *. at1 A1 as A2.
    pose proof (fun t => spacing_ok buf penv _ _ _ t Hl St A2) as Hsp.
    pose proof (items_none buf penv (EChar (quote_of dbl)) [quote_of dbl] (quote_close dbl) _ _ [EName (if dbl then pr_DoubleChar else pr_Char)] A1) as Hnone.
    exists t. destruct dbl; cbn [quote_of] in *; cgo.
  - cbn [kshows flat_map] in *. fold (kshows ks') in *. rewrite <- app_assoc in A1.
    unfold chars_ok in Hok. cbn [items_ok] in Hok. apply andb_true_iff in Hok. destruct Hok as [Hk Hks].
    fold (shows cchar kshow ks') in Hk. change (shows cchar kshow ks') with (kshows ks') in Hk.
    destruct (items_first buf penv cchar kshow (fun k => [kcall dbl k]) (lit_item_ok (quote_of dbl)) (EChar (quote_of dbl)) _
                (lit_item dbl) k _ (S p) t Hk A1) as [t1 Hfirst].
    atn A1 as A2. atn A2 as A3. at1 A3 as A4.
    pose proof (fun t => spacing_ok buf penv _ _ _ t Hl St A4) as Hsp.
    let b := eval vm_compute in (nth_error pegpeg_d pr_Literal) in
    lazymatch b with
    | Some (RBody (EAlt [ESeq [_; _; EStar (ESeq [_; _; ?a1]); _; _]; ESeq [_; _; EStar (ESeq [_; _; ?a2]); _; _]])) =>
        destruct (items_star buf penv cchar kshow (fun k => [kcall dbl k]) (lit_item_ok (quote_of dbl)) _ _ (if dbl then a2 else a1)
                    [(CAddSequence, [])] [quote_of dbl] (lit_item dbl) ltac:(intros; destruct dbl; cgo) (quote_close dbl)
                    ks' _ _ t1 Hks A2) as [t2 Hst]
    end.
    change (shows cchar kshow ks') with (kshows ks') in Hst.
    exists t2. cbn [lit_calls]. destruct dbl; cbn [quote_of] in *; cgo.
Qed.

End Lit.

(** [item_okb i rest], an item given what follows it: the closing bracket does not come first, digit runs end, a
    lone character is not followed by '-' *)
Section Class.
Variable buf : list rune.
Variable penv : nat -> nat -> bool.
Notation At := (At buf).
Notation C := (C buf penv).
Notation ko := (ko pegpeg_d pegpeg_d_ptx buf penv).
Notation ok := (ok pegpeg_d pegpeg_d_ptx buf penv).

Lemma ihead_show i : exists m, ishow i = ihead i :: m.
Proof. destruct i as [k|lo hi]; cbn [ishow ihead]; [apply kshow_head|]. destruct (kshow_head lo) as [m E]. rewrite E. cbn. eauto. Qed.
Lemma item_head i rest : item_okb i rest = true -> ihead i <> 93.
Proof.
  destruct i; cbn [ihead]; intros H; [apply item_okb_char in H|apply item_okb_range in H]; apply H.
Qed.

Lemma guard_ko dbl i rest p : item_okb i rest = true -> At p (ishow i ++ rest) -> ko (cguard dbl) p.
Proof.
  intros Hok Hat. pose proof (item_head _ _ Hok). destruct (ihead_show i) as [m E]. rewrite E in Hat. cbn [app] in Hat.
  destruct dbl; cbn [cguard]; korun.
Qed.
Lemma guard_close dbl p after : At p (cclose dbl ++ after) -> exists p' f, ok (cguard dbl) p p' f.
Proof.
  intros Hat. destruct dbl; cbn [cclose cguard app] in *.
  - at1 Hat as A1. exists (S (S p)), ([] ++ [] ++ []). apply ok_seq. eapply oks_cons; [apply ok_char; eapply At_head; exact Hat|].
    eapply oks_cons; [apply ok_char; eapply At_head; exact A1|apply oks_nil].
  - exists (S p), []. apply ok_char. eapply At_head. exact Hat.
Qed.

Lemma range_item dbl i rest p t : item_okb i rest = true -> At p (ishow i ++ rest) ->
  ko (cguard dbl) p /\
  exists t', C (EName (if dbl then pr_DoubleRange else pr_Range)) p (p + length (ishow i))%nat (icalls dbl i) t t'.
Proof.
  intros Hok Hat. split; [eapply guard_ko; eassumption|].
  destruct i as [k|lo hi]; cbn [ishow icalls] in *.
  - apply item_okb_char in Hok. destruct Hok as (Hv & _ & Hf & Hd).
    destruct (char_ok buf penv k rest p (0%nat, 0%nat) Hv Hf Hat) as [t0 H0].
    atn Hat as A1.
    assert (Hk : ko (EChar 45) (p + length (kshow k))%nat).
    { eapply ko_char_at; [exact A1|]. intros c' s' ->. cbn [head_is] in Hd. lia. }
    destruct (xchar_ok buf penv dbl k rest p t Hv Hf Hat) as [t1 H1]. exists t1. destruct dbl; cgo.
  - apply item_okb_range in Hok. destruct Hok as (Hvl & _ & Hfl & Hvh & Hfh).
    rewrite <- app_assoc in Hat. cbn [app] in Hat.
    destruct (char_ok buf penv lo _ p t Hvl Hfl Hat) as [t1 K1].
    atn Hat as A1. at1 A1 as A2.
    destruct (char_ok buf penv hi _ _ t1 Hvh Hfh A2) as [t2 K2].
    exists t2. destruct dbl; cgo.
Qed.

Lemma ranges_ok dbl i l after p t : citems_ok (i :: l) (cclose dbl ++ after) = true ->
  At p (ishows (i :: l) ++ cclose dbl ++ after) ->
  exists t', C (EName (if dbl then pr_DoubleRanges else pr_Ranges)) p (p + length (ishows (i :: l)))%nat (chain_calls dbl (i :: l)) t t'.
Proof.
  intros Hok Hat. unfold citems_ok in Hok. cbn [items_ok] in Hok. apply andb_true_iff in Hok. destruct Hok as [Hi Hl].
  change (shows citem ishow l) with (ishows l) in Hi.
  cbn [ishows flat_map] in *. fold (ishows l) in *. rewrite <- app_assoc in Hat.
  destruct (range_item dbl i _ p t Hi Hat) as [Hk [t1 Hfirst]].
  atn Hat as A1.
  let b := eval vm_compute in (nth_error pegpeg_d pr_Ranges, nth_error pegpeg_d pr_DoubleRanges) in
  lazymatch b with
  | (Some (RBody (ESeq [_; _; EStar (ESeq [_; _; ?a1])])), Some (RBody (ESeq [_; _; EStar (ESeq [_; _; ?a2])]))) =>
      destruct (items_star buf penv citem ishow (icalls dbl) item_okb (cguard dbl) _ (if dbl then a2 else a1) [(CAddAlternate, [])] (cclose dbl)
                  (range_item dbl) ltac:(intros; destruct dbl; cgo) (guard_close dbl) l after _ t1 Hl A1) as [t2 Hst]
  end.
  exists t2. change (shows citem ishow l) with (ishows l) in Hst.
  cbn [chain_calls]. destruct dbl; cbn [cguard] in *; into_rule; cgo.
Qed.
Lemma ranges_ko dbl after p : At p (cclose dbl ++ after) -> ko (EName (if dbl then pr_DoubleRanges else pr_Ranges)) p.
Proof.
  intros Hat. pose proof (fun es => items_none buf penv (cguard dbl) (cclose dbl) (guard_close dbl) p after es Hat) as K.
  destruct dbl; ko_into_rule; apply K.
Qed.

Theorem class_ok dbl neg l s rest p t :
  class_wf dbl neg l = true -> citems_ok l (cclose dbl ++ s ++ rest) = true -> lay s -> stop rest ->
  At p (copen dbl ++ (if neg then [94] else []) ++ ishows l ++ cclose dbl ++ s ++ rest) ->
  exists t', C (EName pr_Class) p (p + class_len dbl neg l + length s)%nat (class_calls dbl neg l) t t'.
Proof.
  intros Hwf Hok Hl St Hat. unfold class_len. atl Hat as A1.
  destruct l as [|i l].
  - (* empty: [] or [[]] *)
    cbn [class_wf] in Hwf. apply negb_true_iff in Hwf. subst neg. cbn [ishows flat_map app length] in *. exists t.
    pose proof (ranges_ko dbl _ _ A1) as Hk. atl A1 as A2.
    pose proof (fun t => spacing_ok buf penv _ _ _ t Hl St A2) as Hsp.
    destruct dbl; cbn [copen cclose app length Nat.add] in *; cgo.
  - (* the item list starts behind the optional ^; without one, its first character is no ^ (nor a second [) *)
    destruct (ihead_show i) as [m Em]. atl A1 as A2.
    destruct (ranges_ok dbl i l _ _ t Hok A2) as [t1 Hr]. exists t1.
    atn A2 as A3. atl A3 as A4. pose proof (fun t => spacing_ok buf penv _ _ _ t Hl St A4) as Hsp.
    cbn [ishows flat_map] in A2. rewrite Em in A2.
    cbn [class_calls]. destruct dbl, neg; cbn [copen cclose app length Nat.add class_wf] in *; cgo.
Qed.

End Class.
