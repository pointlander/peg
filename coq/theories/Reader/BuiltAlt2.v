(** What the builder builds has every ordered choice at two alternatives or more: the hypothesis [grammar_alt2] of the
    emission theorems (C08_declared_variables_used, C01_side_condition_always_holds) is a property of every tree the
    front end hands to Compile, whatever text it was given. *)
From PegV Require Import Base.Tac Spec.Syntax Model.Calls Model.Front Proofs.EmitUse Reader.Defs Reader.BridgeDefs.
From Coq Require Import List Bool.
Import ListNotations.

Lemma alt2_add_list_alt a b : alt2 a = true -> alt2 b = true -> alt2 (add_list_alt a b) = true.
Proof.
  intros Ha Hb. unfold add_list_alt. destruct b; try (cbn [alt2 length forallb Nat.leb andb] in *; rewrite Ha, ?Hb; reflexivity).
  cbn [alt2] in *. apply andb_true_iff in Hb as [Hl Hb]. rewrite app_length, forallb_app, Hb. cbn [forallb length]. rewrite Ha.
  apply Nat.leb_le in Hl. replace (Nat.leb 2 (length es + 1)) with true by (symmetry; apply Nat.leb_le; lia). reflexivity.
Qed.
Lemma alt2_add_list_seq a b : alt2 a = true -> alt2 b = true -> alt2 (add_list_seq a b) = true.
Proof.
  intros Ha Hb. unfold add_list_seq. destruct b; try (cbn [alt2 forallb andb] in *; rewrite Ha, ?Hb; reflexivity).
  cbn [alt2] in *. rewrite forallb_app, Hb. cbn [forallb]. rewrite Ha. reflexivity.
Qed.

Lemma bstep_alt2 stk o stk' : Forall (fun e => alt2 e = true) stk -> bstep stk o = Some stk' -> Forall (fun e => alt2 e = true) stk'.
Proof.
  intros H E. destruct o; cbn [bstep] in E;
    try (inv E; constructor; [reflexivity|exact H]).
  (* the prefix and suffix operators wrap the top of the stack *)
  5-10: destruct stk as [|a r]; try discriminate; inv E; inv H; constructor; assumption.
  - destruct stk as [|a [|b r]]; try discriminate. inv E. inv H. match goal with X : Forall _ (b :: r) |- _ => inv X end.
    constructor; [apply alt2_add_list_alt; assumption|assumption].
  - destruct stk as [|a [|b r]]; try discriminate. inv E. inv H. match goal with X : Forall _ (b :: r) |- _ => inv X end.
    constructor; [apply alt2_add_list_seq; assumption|assumption].
  - destruct stk as [|hi [|lo r]]; try discriminate; destruct hi; try discriminate. destruct lo; try discriminate.
    inv E. inv H. match goal with X : Forall _ (_ :: r) |- _ => inv X end. constructor; [reflexivity|assumption].
  - destruct stk as [|hi [|lo r]]; try discriminate; destruct hi; try discriminate. destruct lo; try discriminate.
    inv E. inv H. match goal with X : Forall _ (_ :: r) |- _ => inv X end. constructor; [reflexivity|assumption].
Qed.

Section Built.
Variable nm : list rune -> nat.
Variable ak : list rune -> nat.

Definition good_state (s : fstate) : Prop :=
  Forall (fun e => alt2 e = true) (stk s) /\ forall n e, In (NRule n e) (back s) -> alt2 e = true.

Lemma fstep_good s c s' : good_state s -> fstep nm ak s c = Some s' -> good_state s'.
Proof.
  intros [Hs Hb] E. unfold fstep in E. destruct (bop_of nm ak c) as [o|] eqn:Eo.
  - destruct (bstep (stk s) o) as [stk'|] eqn:Eb; [|discriminate]. inv E. split; [eapply bstep_alt2; eauto|exact Hb].
  - destruct c as [[] t]; try discriminate; try (inv E; split; [exact Hs|]; cbn [back push_back]; intros n e Hin; apply in_app_or in Hin as [Hin|[Hin|[]]]; [eapply Hb; eauto|discriminate]).
    + destruct (pegn s); [discriminate|]. inv E. split; [exact Hs|exact Hb].
    + destruct (pegn s); [|discriminate]. inv E. split; [exact Hs|]. cbn [back]. intros n e Hin. apply in_app_or in Hin as [Hin|[Hin|[]]]; [eapply Hb; eauto|discriminate].
    + destruct (pend s); [discriminate|]. destruct (stk s); [|discriminate]. inv E. split; [constructor|exact Hb].
    + destruct (pend s) as [n0|]; [|discriminate]. destruct (stk s) as [|e0 [|]] eqn:Ek; try discriminate. inv E. split; [constructor|].
      cbn [back]. intros n e Hin. apply in_app_or in Hin as [Hin|[Hin|[]]]; [eapply Hb; eauto|]. inv Hin. inv Hs. assumption.
Qed.

Lemma frun_good cs : forall s s', good_state s -> frun nm ak cs s = Some s' -> good_state s'.
Proof.
  induction cs as [|c cs IH]; intros s s' H E; cbn [frun] in E; [inv E; exact H|].
  destruct (fstep nm ak s c) as [s1|] eqn:E1; [|discriminate]. eapply IH; [eapply fstep_good; eauto|exact E].
Qed.

(** every rule the builder ends up with, from the empty state, has its choices at two alternatives or more *)
Theorem built_rules_alt2 cs s' : frun nm ak cs finit = Some s' -> forall n e, In (NRule n e) (back s') -> alt2 e = true.
Proof.
  intros E. apply (frun_good cs finit s'); [|exact E]. split; [constructor|intros n e []].
Qed.
End Built.
