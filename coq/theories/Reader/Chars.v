(** Characters of literals and classes: raw, the simple escapes (either letter case), \0x hex, octal. *)
From PegV Require Import Base.Tac Base.ListX Spec.Syntax Spec.Peg Proofs.PegRel Model.Calls Generated.PegPeg Reader.Base Reader.Lex.
Local Open Scope Z_scope.

Section Chars.
Variable buf : list rune.
Variable penv : nat -> nat -> bool.
Notation At := (At buf).
Notation C := (C buf penv).
Notation ko := (ko pegpeg_d pegpeg_d_ptx buf penv).

(** Escape is one long ordered choice. [esc H w] enters it behind the alternatives that are dead on the window [w]
    (which bounds the characters at [H]), runs what is left, and leaves end position, calls and text register to be
    compared; [esc1] does so where the first alternative left is the one that matches.
    Facts about characters are kept as inequalities on [Z], not as boolean tests: every [lia] of a run reads the
    whole context. *)
Definition esc_alts : list expr := match nth_error pegpeg_d pr_Escape with Some (RBody (EAlt l)) => l | _ => [] end.
Lemma escape_enter w es p s p' cs t t' : At p s -> in_window w s -> skip_dead (deads pegpeg_d 0) w esc_alts = es ->
  Ca buf penv es p p' cs t t' -> C (EName pr_Escape) p p' cs t t'.
Proof. apply (C_enter _ _ pr_Escape 0 w esc_alts); [lookup|notptx]. Qed.
Lemma escape_pick w a p s p' cs t t' : At p s -> in_window w s -> hd_error (skip_dead (deads pegpeg_d 0) w esc_alts) = Some a ->
  C a p p' cs t t' -> C (EName pr_Escape) p p' cs t t'.
Proof. apply (C_pick _ _ pr_Escape 0 w esc_alts); [lookup|notptx]. Qed.
Ltac esc_by L H w := eapply C_eq; [eapply (L w); [exact H | cbn [in_window]; lia | vm_compute; reflexivity | crun] | ..].
Ltac esc H w := esc_by escape_enter H w.
Ltac esc1 H w := esc_by escape_pick H w.

Lemma escape_esc c rest p t : is_esc c = true -> At p (92 :: c :: rest) ->
  C (EName pr_Escape) p (S (S p)) [(CAddCharacter, [esc_val c])] t t.
Proof.
  intros He Hat. unfold is_esc in He. cbn [existsb esc_table fst] in He.
  repeat match type of He with
  | (?x =? c) || _ = true => destruct (Z.eqb_spec x c) as [<-|_]; [clear He; esc1 Hat [(92, 92); (x, x)]; reflexivity|cbn [orb] in He]
  end.
  discriminate.
Qed.

Notation hexdig := (EAlt [ERange 48 57; ERange 97 102; ERange 65 70]).
Lemma hexdig_ok p c s t : At p (c :: s) -> is_hex c = true -> C hexdig p (S p) [] t t.
Proof.
  intros Hat Hc. unfold is_hex in Hc.
  destruct ((48 <=? c) && (c <=? 57))%bool eqn:E1; [cgo|].
  destruct ((97 <=? c) && (c <=? 102))%bool eqn:E2; [cgo|].
  cbn [orb] in Hc. cgo.
Qed.
Lemma hexdig_ko p s0 : At p s0 -> (forall c s', s0 = c :: s' -> is_hex c = false) -> ko hexdig p.
Proof.
  intros Hat N. destruct s0 as [|c s']; [korun|]. pose proof (N c s' eq_refl) as Hc. unfold is_hex in Hc. korun.
Qed.
Lemma escape_hex x ds rest p t : kvalid (KHex x ds) = true -> kfollow (KHex x ds) rest = true ->
  At p (92 :: 48 :: x :: ds ++ rest) ->
  C (EName pr_Escape) p (p + 3 + length ds)%nat [(CAddHexaCharacter, ds)] t ((p + 3)%nat, (p + 3 + length ds)%nat).
Proof.
  intros Hv Hf Hat. cbn [kvalid] in Hv. apply andb_true_iff in Hv. destruct Hv as [Hx Hd].
  destruct ds as [|d ds]; [discriminate|]. cbn [forallb] in Hd. apply andb_true_iff in Hd. destruct Hd as [Hd1 Hd].
  assert (Hn : forall c s', rest = c :: s' -> is_hex c = false).
  { intros c s' ->. cbn [kfollow] in Hf. destruct (is_hex c); [discriminate|reflexivity]. }
  at1 Hat as A1. at1 A1 as A2. at1 A2 as A3. cbn [app] in A3. at1 A3 as A4.
  pose proof (fun t => hexdig_ok _ _ _ t A3 Hd1) as K1.
  pose proof (fun t => C_star_run buf penv _ _ hexdig_ok hexdig_ko ds _ _ t Hd Hn A4) as K2.
  assert (Hx' : x = 120 \/ x = 88) by lia. clear Hx Hd1 Hd Hf Hn.
  destruct Hx' as [-> | ->].
  all: esc1 Hat [(92, 92); (48, 48)]; [cbn [length]; lia| |f_equal; cbn [length]; lia].
  all: eapply (text_call _ _ _ (d :: ds)); [reflexivity|exact A3|cbn [length]; lia].
Qed.

Ltac oct_unfold := unfold is_oct, is_oct03, is_hex in *.

Lemma escape_oct3 a b c rest p t : kvalid (KOct [a; b; c]) = true -> At p (92 :: a :: b :: c :: rest) ->
  C (EName pr_Escape) p (p + 4)%nat [(CAddOctalCharacter, [a; b; c])] t (S p, (p + 4)%nat).
Proof.
  intros Hv Hat. at1 Hat as A1.
  assert (48 <= a <= 51 /\ 48 <= b <= 55 /\ 48 <= c <= 55) as (Ra & Rb & Rc) by (cbn [kvalid] in Hv; oct_unfold; lia).
  clear Hv. esc1 Hat [(92, 92); (48, 51); (48, 55)]; [lia| |f_equal; lia].
  eapply (text_call _ _ _ [a; b; c]); [reflexivity|exact A1|cbn [length]; lia].
Qed.

Lemma escape_oct2 a b rest p t : kvalid (KOct [a; b]) = true -> kfollow (KOct [a; b]) rest = true -> At p (92 :: a :: b :: rest) ->
  C (EName pr_Escape) p (p + 3)%nat [(CAddOctalCharacter, [a; b])] t (S p, (p + 3)%nat).
Proof.
  intros Hv Hf Hat. at1 Hat as A1. cbn [kvalid kfollow] in Hv, Hf.
  assert (48 <= a <= 55 /\ 48 <= b <= 55) as [Ra Rb] by (oct_unfold; lia).
  (* a first digit up to 3 lets the three-digit form try first: it stops at the character after [b] *)
  assert (Rf : a <= 51 -> forall c r, rest = c :: r -> c < 48 \/ 55 < c).
  { intros L c r ->. oct_unfold. destruct ((48 <=? a) && (a <=? 51))%bool eqn:E; lia. }
  clear Hv Hf.
  destruct (Z_le_gt_dec a 51) as [L|G]; [destruct rest as [|c r]; [|pose proof (Rf L c r eq_refl)]|]; clear Rf.
  1: esc1 Hat [(92, 92); (48, 51); (48, 55); (1, 0)]; [lia| |f_equal; lia].
  2: esc Hat [(92, 92); (48, 51); (48, 55)]; [lia| |f_equal; lia].
  3: esc1 Hat [(92, 92); (52, 55); (48, 55)]; [lia| |f_equal; lia].
  all: eapply (text_call _ _ _ [a; b]); [reflexivity|exact A1|cbn [length]; lia].
Qed.

Lemma escape_oct1 a rest p t : kvalid (KOct [a]) = true -> kfollow (KOct [a]) rest = true -> At p (92 :: a :: rest) ->
  C (EName pr_Escape) p (p + 2)%nat [(CAddOctalCharacter, [a])] t (S p, (p + 2)%nat).
Proof.
  intros Hv Hf Hat. cbn [kvalid] in Hv. cbn [kfollow] in Hf. at1 Hat as A1.
  assert (Ra : 48 <= a <= 55) by (oct_unfold; lia). clear Hv.
  destruct rest as [|c r].
  - clear Hf. esc1 Hat [(92, 92); (48, 55); (1, 0)]; [lia|eapply (text_call _ _ _ [_]); [reflexivity|exact A1|cbn [length]; lia]|f_equal; lia].
  - apply andb_true_iff in Hf. destruct Hf as [Hc Hx]. apply negb_true_iff in Hx.
    assert (Rc : c < 48 \/ 55 < c) by (oct_unfold; lia). clear Hc.
    destruct (Z.eq_dec a 48) as [->|Na];
      [destruct (Z.eq_dec c 120) as [->|N1]; [|destruct (Z.eq_dec c 88) as [->|N2]]|destruct (Z_le_gt_dec a 51)].
    (* "\0x", "\0X": the hex form is tried first and finds no digit *)
    1,2: assert (Hk : ko hexdig (S (S (S p))))
           by (at1 A1 as A2; at1 A2 as A3; eapply hexdig_ko; [exact A3|intros d r' ->; exact Hx]).
    all: clear Hx.
    all: esc Hat [(92, 92); (48, 55)]; [lia|eapply (text_call _ _ _ [_]); [reflexivity|exact A1|cbn [length]; lia]|f_equal; lia].
Qed.

Lemma escape_ko p s0 : At p s0 -> (forall c s', s0 = c :: s' -> c <> 92) -> ko (EName pr_Escape) p.
Proof. intros Hat N. destruct s0 as [|c s']; [korun|]. pose proof (N c s' eq_refl). korun. Qed.

Lemma escape_ok k rest p t : kvalid k = true -> kfollow k rest = true -> (forall c, k <> KRaw c) -> At p (kshow k ++ rest) ->
  exists t', C (EName pr_Escape) p (p + length (kshow k))%nat [kcall false k] t t'.
Proof.
  intros Hv Hf Hr Hat. destruct k as [c|c|x ds|ds]; [exfalso; eapply Hr; reflexivity| | |].
  - eexists. cbn [kshow length app] in *. replace (p + 2)%nat with (S (S p)) by lia. eapply escape_esc; eassumption.
  - eexists. cbn [kshow length app kcall] in *. replace (p + S (S (S (length ds))))%nat with (p + 3 + length ds)%nat by lia.
    eapply escape_hex; eassumption.
  - cbn [kshow kcall] in *. destruct ds as [|a [|b [|c [|? ?]]]]; try discriminate; eexists; cbn [length app] in *.
    + eapply escape_oct1; eassumption.
    + eapply escape_oct2; eassumption.
    + eapply escape_oct3; eassumption.
Qed.
Lemma kcall_esc dbl k : (forall c, k <> KRaw c) -> kcall dbl k = kcall false k.
Proof. destruct k; intros H; try reflexivity. exfalso. eapply H. reflexivity. Qed.

(** Char and DoubleChar try Escape first; DoubleChar then takes a letter by the alternative for its case, and
    both end with any other character *)
Theorem xchar_ok (dbl : bool) k rest p t : kvalid k = true -> kfollow k rest = true -> At p (kshow k ++ rest) ->
  exists t', C (EName (if dbl then pr_DoubleChar else pr_Char)) p (p + length (kshow k))%nat [kcall dbl k] t t'.
Proof.
  intros Hv Hf Hat. destruct k as [c|c|x ds|ds].
  2-4: destruct (escape_ok _ rest p t Hv Hf ltac:(discriminate) Hat) as [t' H]; eexists; destruct dbl; cgo.
  cbn [kvalid kshow kcall length app] in *. assert (c <> 92) by lia. clear Hv.
  pose proof (escape_ko _ _ Hat ltac:(intros ? ? E; inv E; assumption)) as Hk.
  destruct dbl; cbn [andb];
    [destruct (is_alpha c) eqn:Ea; unfold is_alpha in Ea;
       [assert (Rc : 97 <= c <= 122 \/ 65 <= c <= 90) by lia; destruct Rc
       |assert (Rc : ~ 97 <= c <= 122 /\ ~ 65 <= c <= 90) by lia]; clear Ea|].
  all: eexists; eapply C_eq; [crun|lia|eapply (text_call _ _ _ [c]); [reflexivity|exact Hat|cbn [length]; lia]|reflexivity].
Qed.

Theorem char_ok k rest p t : kvalid k = true -> kfollow k rest = true -> At p (kshow k ++ rest) ->
  exists t', C (EName pr_Char) p (p + length (kshow k))%nat [kcall false k] t t'.
Proof. exact (xchar_ok false k rest p t). Qed.

End Chars.
