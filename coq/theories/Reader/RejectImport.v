(** Rejection at the level of the file header: what may go wrong between the package clause and `Peg`.
    After the package clause and any number of well-formed imports comes a text on which Import fails, so Import* ends
    before it, and which does not go on with `type`; or the type clause is not followed by `Peg`. *)
From PegV Require Import Base.Tac Base.ListX Spec.Syntax Spec.Peg Proofs.PegRel Model.Calls Generated.PegPeg
  Reader.Defs Reader.Base Reader.Lex Reader.Chars Reader.Lits Reader.Expr Reader.File Reader.Reject Spec.WF Proofs.Forest Proofs.Total.
Local Open Scope Z_scope.

Section RejectImport.
Variable buf : list rune.
Variable penv : nat -> nat -> bool.
Notation At := (At buf).
Notation C := (C buf penv).
Notation ko := (ko pegpeg_d pegpeg_d_ptx buf penv).
Notation kos := (kos pegpeg_d pegpeg_d_ptx buf penv).
Notation koa := (koa pegpeg_d pegpeg_d_ptx buf penv).

Lemma seq_fail_extend (f : expr -> nat -> option out) l1 : forall l2 p v, seq_ev f l1 p = Some (Fail, v) -> seq_ev f (l1 ++ l2) p = Some (Fail, v).
Proof.
  induction l1 as [|e l1 IH]; intros l2 p v H; cbn [seq_ev app] in *; [discriminate|].
  destruct (f e p) as [[[|q fq] vq]|]; try discriminate; [exact H|].
  destruct (seq_ev f l1 q) as [[[|q' fq'] vq']|] eqn:E; try discriminate.
  inv H. rewrite (IH l2 _ _ E). reflexivity.
Qed.
Lemma kos_extend l1 l2 p : kos l1 p -> kos (l1 ++ l2) p.
Proof. intros (n & v & H). exists n, v. apply seq_fail_extend. exact H. Qed.

Lemma import_body : nth_error pegpeg_d pr_Import = Some (RBody (ESeq (
  map EChar kw_import ++ [EName pr_Spacing; EAlt [EName pr_MultiImport; EName pr_SingleImport]; EName pr_Spacing]))).
Proof. reflexivity. Qed.

Lemma rejects_after_imports hdr spkg pkg s1 imps rest :
  header_ok hdr [112] -> lay spkg -> spkg <> [] -> ident_ok pkg = true -> lay s1 -> s1 <> [] ->
  Forall imp_ok imps -> stop rest -> (forall q, At q rest -> ko (EName pr_Import) q) -> (forall r, rest <> kw_type ++ r) ->
  buf = flat_map hshow hdr ++ kw_package ++ spkg ++ pkg ++ s1 ++ flat_map impshow imps ++ rest ->
  ko (EName pr_Grammar) 0.
Proof.
  intros Hh Hsp Hspn Hpk Hs1 Hs1n Himp Hstop Kq Ntype Ebuf.
  apply (after_imports buf penv hdr spkg pkg s1 imps rest); try assumption.
  intros q A2. split; [exact (Kq q A2)|]. apply kos_head. apply ko_seq. exact (kw_ko buf penv kw_type _ _ A2 Ntype).
Qed.

(** After the imports comes a text that begins with neither `import` nor `type` (and not with layout, which the clause
    before it has consumed): Import fails on its keyword. *)
Theorem grammar_rejects_missing_type hdr spkg pkg s1 imps rest :
  header_ok hdr [112] -> lay spkg -> spkg <> [] -> ident_ok pkg = true -> lay s1 -> s1 <> [] ->
  Forall imp_ok imps -> stop rest -> (forall r, rest <> kw_import ++ r) -> (forall r, rest <> kw_type ++ r) ->
  buf = flat_map hshow hdr ++ kw_package ++ spkg ++ pkg ++ s1 ++ flat_map impshow imps ++ rest ->
  ko (EName pr_Grammar) 0.
Proof.
  intros Hh Hsp Hspn Hpk Hs1 Hs1n Himp Hstop Nimp Ntype.
  apply (rejects_after_imports hdr spkg pkg s1 imps rest); try assumption.
  intros q A2. eapply ko_name; [exact import_body|]. apply ko_seq.
  apply kos_extend. exact (kw_ko buf penv kw_import _ _ A2 Nimp).
Qed.

Lemma import_arg_ko q sp T : lay sp -> stop T -> At q (kw_import ++ sp ++ T) ->
  (forall q', At q' T -> ko (EName pr_MultiImport) q' /\ ko (EName pr_SingleImport) q') -> ko (EName pr_Import) q.
Proof.
  intros Hsp HT A0 K. atn A0 as A1. atn A1 as A2. destruct (K _ A2) as [KM KS].
  eapply ko_name; [exact import_body|]. apply ko_seq.
  eapply kos_app_Cs; [exact (kw_ok buf penv kw_import q _ (0%nat, 0%nat) A0)|].
  eapply kos_tail_C; [exact (spacing_ok buf penv sp T _ (0%nat, 0%nat) Hsp HT A1)|].
  apply kos_head. apply ko_alt. apply koa_cons; [exact KM|]. apply koa_cons; [exact KS|]. apply koa_nil.
Qed.

(** An import block that is opened and never closed: `import`, layout, `(` and a text without `)`.  MultiImport
    finds no closing parenthesis however far it reads, SingleImport cannot start at `(`. *)
Theorem grammar_rejects_unclosed_import hdr spkg pkg s1 imps sp T :
  header_ok hdr [112] -> lay spkg -> spkg <> [] -> ident_ok pkg = true -> lay s1 -> s1 <> [] ->
  Forall imp_ok imps -> lay sp -> ~ In 41 T ->
  buf = flat_map hshow hdr ++ kw_package ++ spkg ++ pkg ++ s1 ++ flat_map impshow imps ++ kw_import ++ sp ++ 40 :: T ->
  ko (EName pr_Grammar) 0.
Proof.
  intros Hh Hsp Hspn Hpk Hs1 Hs1n Himp Hlsp HT.
  apply (rejects_after_imports hdr spkg pkg s1 imps (kw_import ++ sp ++ 40 :: T)); try assumption.
  - exact (pstart_stop 105 _ eq_refl).
  - intros q A0. apply (import_arg_ko q sp (40 :: T) Hlsp); [exact (pstart_stop 40 T eq_refl)|exact A0|].
    intros q' B. split; [|korun].
    ko_into_rule. apply ko_seq.
    apply (kos_unclosed buf penv q' 40 41 T _ 4 (EChar 41) B); [discriminate|exact HT|lookup|lookup|auto].
  - intros r E. discriminate E.
Qed.

(** `import` followed by something that can start neither an import block nor an import name - single quotes,
    angle brackets, a digit, the end of the text. *)
Theorem grammar_rejects_bad_import hdr spkg pkg s1 imps sp T :
  header_ok hdr [112] -> lay spkg -> spkg <> [] -> ident_ok pkg = true -> lay s1 -> s1 <> [] ->
  Forall imp_ok imps -> lay sp -> stop T ->
  (forall c r, T = c :: r -> c <> 40 /\ is_istart c = false /\ c <> 34) ->
  buf = flat_map hshow hdr ++ kw_package ++ spkg ++ pkg ++ s1 ++ flat_map impshow imps ++ kw_import ++ sp ++ T ->
  ko (EName pr_Grammar) 0.
Proof.
  intros Hh Hsp Hspn Hpk Hs1 Hs1n Himp Hlsp HstT HT.
  apply (rejects_after_imports hdr spkg pkg s1 imps (kw_import ++ sp ++ T)); try assumption.
  - exact (pstart_stop 105 _ eq_refl).
  - intros q A0. apply (import_arg_ko q sp T Hlsp HstT A0). intros q' B. split.
    + ko_into_rule. apply ko_seq. apply kos_head. destruct T as [|c r]; [korun|]. destruct (HT c r eq_refl) as (H1 & _). korun.
    + ko_into_rule. eapply iname_ko; [exact B|]. intros c r E. destruct (HT c r E) as (_ & H2 & H3). split; assumption.
  - intros r E. discriminate E.
Qed.

(** The parser type without its `Peg` keyword: after `type`, layout, a name and layout comes a text that does not
    begin with `Peg` (nor with layout). *)
Theorem grammar_rejects_missing_Peg f rest : head_ok f -> stop rest -> (forall r, rest <> kw_Peg ++ r) ->
  buf = pre_text f ++ rest -> ko (EName pr_Grammar) 0.
Proof.
  intros Hf Hstop NPeg Ebuf. apply (after_type buf penv f rest Hf Hstop Ebuf).
  intros q A3. apply kos_head. apply ko_seq. exact (kw_ko buf penv kw_Peg _ _ A3 NPeg).
Qed.

End RejectImport.
Print Assumptions grammar_rejects_unclosed_import.
Print Assumptions grammar_rejects_missing_type.
Print Assumptions grammar_rejects_missing_Peg.
Print Assumptions grammar_rejects_bad_import.
