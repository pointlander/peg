(** Well-formedness as a computation: [wfb e = true] implies [wf e], so the hypothesis of the reader
    theorems can be checked by evaluation (and is, for every expression the correspondence run prints). *)
From PegV Require Import Base.Tac Base.ListX Spec.Syntax Model.Calls Reader.Base Reader.Lex Reader.Chars Reader.Lits Reader.Expr.
Local Open Scope Z_scope.

Lemma layb_sound_n n : forall s, (length s <= n)%nat ->
  (layb_c false s = true -> lay s) /\
  (layb_c true s = true -> exists body e s', s = body ++ e :: s' /\ nolb body /\ is_lb e /\ lay s').
Proof.
  induction n as [|n IH]; intros s Ln.
  - destruct s; [|cbn in Ln; lia]. split; [intros _; constructor|cbn; discriminate].
  - destruct s as [|c r]; [split; [intros _; constructor|cbn; discriminate]|]. cbn [length] in Ln.
    destruct (IH r ltac:(lia)) as [IHf IHt]. split; cbn [layb_c].
    + destruct ((c =? 32) || (c =? 9) || (c =? 10) || (c =? 13))%bool eqn:Esp.
      * intros H. apply lay_sp; [lia|apply IHf; exact H].
      * destruct (Z.eqb_spec c 35) as [->|N35].
        -- intros H. destruct (IHt H) as (body & e & s' & -> & Hb & He & Hl). apply lay_hash; assumption.
        -- destruct (Z.eqb_spec c 47) as [->|N47]; [|discriminate].
           destruct r as [|d r']; [discriminate|]. destruct (Z.eqb_spec d 47) as [->|Nd]; [|discriminate].
           intros H. destruct (IH r' ltac:(cbn [length] in Ln; lia)) as [_ IHt'].
           destruct (IHt' H) as (body & e & s' & -> & Hb & He & Hl). apply lay_slashes; assumption.
    + destruct ((c =? 10) || (c =? 13))%bool eqn:Elb.
      * intros H. exists [], c, r. split; [reflexivity|]. split; [constructor|]. split; [unfold is_lb; lia|apply IHf; exact H].
      * intros H. destruct (IHt H) as (body & e & s' & -> & Hb & He & Hl).
        exists (c :: body), e, s'. split; [reflexivity|]. split; [constructor; [lia|exact Hb]|]. split; assumption.
Qed.
Lemma layb_sound s : layb s = true -> lay s.
Proof. intros H. exact (proj1 (layb_sound_n _ s (le_n _)) H). Qed.

Fixpoint bal_open (d : nat) (s : list rune) : Prop :=
  match d with
  | O => bal s
  | S d' => exists a s', s = a ++ 125 :: s' /\ bal a /\ bal_open d' s'
  end.
Lemma balb_open s : forall d, balb d s = true -> bal_open d s.
Proof.
  induction s as [|c r IH]; intros d H; cbn [balb] in H.
  - destruct d; [constructor|discriminate].
  - destruct (Z.eqb_spec c 123) as [->|N1].
    + destruct (IH _ H) as (a & s' & -> & Ha & Hs'). destruct d as [|d']; cbn [bal_open] in *.
      * apply bal_nest; assumption.
      * destruct Hs' as (a3 & s3 & -> & Ha3 & Hs3). exists (123 :: a ++ 125 :: a3), s3.
        split; [cbn [app]; rewrite <- app_assoc; reflexivity|]. split; [apply bal_nest; assumption|exact Hs3].
    + destruct (Z.eqb_spec c 125) as [->|N2].
      * destruct d as [|d']; [discriminate|]. exists [], r. split; [reflexivity|]. split; [constructor|apply IH; exact H].
      * specialize (IH _ H). destruct d as [|d']; cbn [bal_open] in *.
        -- apply bal_char; assumption.
        -- destruct IH as (a & s' & -> & Ha & Hs'). exists (c :: a), s'. split; [reflexivity|]. split; [apply bal_char; assumption|exact Hs'].
Qed.
Lemma balb_sound s : balb 0 s = true -> bal s.
Proof. apply (balb_open s 0). Qed.

Lemma head_is_ne c s : head_is c s = false -> head_ne c s.
Proof. intros H c' r ->. cbn [head_is] in H. lia. Qed.
Lemma adjb_sound l : adjb l = true -> adj l.
Proof.
  induction l as [|x l IH]; [intros; exact I|]. destruct l as [|y l']; [intros; exact I|].
  cbn [adjb adj]. intros H. apply andb_true_iff in H. destruct H as [H1 H2]. split; [|apply IH; exact H2].
  intros Hg. rewrite Hg in H1. cbn [implb] in H1. apply negb_true_iff in H1. intros c r E. rewrite E in H1. exact H1.
Qed.

Lemma sufopb_sound op : sufopb op = true -> is_sufop op.
Proof. unfold sufopb, is_sufop. lia. Qed.
Lemma preopb_sound op : preopb op = true -> is_preop op.
Proof. unfold preopb, is_preop. lia. Qed.
Lemma not_head_is c s : negb (head_is c s) = true -> head_ne c s.
Proof. intros H. apply head_is_ne, negb_true_iff, H. Qed.

(** each premise of a [wf] constructor from the conjunct of [wfb] that decides it *)
Create HintDb wfb discriminated.
#[export] Hint Resolve layb_sound balb_sound adjb_sound sufopb_sound preopb_sound not_head_is leb_complete in_eq : wfb.
#[export] Hint Resolve -> Nat.eqb_eq : wfb.

Corollary wfb_wf e : wfb e = true -> wf e.
Proof.
  induction e as [e IH] using cx_kids_ind. rewrite Forall_forall in IH. intros H.
  destruct e as [s|id s|a s|dbl ks s|dbl neg items s|s1 x s2|s1 x s2|op x s|op s x|op s1 a s2|l|e1 l trail|];
    cbn [wfb kids] in *; repeat (apply andb_true_iff in H; destruct H as [H ?]).
  1-4, 6-10, 13: constructor; auto with wfb.
  - constructor; auto with wfb. intros ->. assumption.
  - constructor; auto with wfb.
    apply Forall_forall. intros y Hy. match goal with F : forallb _ l = true |- _ => pose proof (proj1 (forallb_forall _ _) F y Hy) as Hf end.
    apply andb_true_iff in Hf. destruct Hf as [Hl Hw]. auto with wfb.
  - match goal with F : forallb _ l = true |- _ => rename F into Hall end.
    constructor; auto with wfb.
    + apply Forall_forall. intros sx Hin. pose proof (proj1 (forallb_forall _ _) Hall sx Hin) as Hf.
      repeat (apply andb_true_iff in Hf; destruct Hf as [Hf ?]). pose proof (in_cons e1 _ _ (in_map snd _ _ Hin)). auto 6 with wfb.
    + intros s ->. match goal with T : (layb s && _)%bool = true |- _ => apply andb_true_iff in T; destruct T as [T1 T2] end.
      auto with wfb.
    + match goal with O : (_ || _)%bool = true |- _ => apply orb_true_iff in O; destruct O as [O|O] end.
      * left. destruct l; discriminate.
      * right. destruct trail; discriminate.
Qed.
