(** The file-level builder: what the calls of a whole file leave in the tree (tree/peg.go: AddPackage,
    AddImport, AddPeg/AddState, AddRule ... AddExpression around the expression calls). *)
From PegV Require Import Base.Tac Base.ListX Spec.Syntax Model.Calls Model.Front Proofs.FrontProofs
  Reader.Base Reader.Lex Reader.Chars Reader.Lits Reader.Expr Reader.Bridge Reader.File.
From PegV Require Export Reader.BridgeDefs.
Local Open Scope Z_scope.

(** the deque of tree/peg.go: finished nodes at the back; at the front the rule or Peg node under
    construction and the expression stack *)
Section FB.
Variable nm : list rune -> nat.
Variable ak : list rune -> nat.
Notation fstep := (BridgeDefs.fstep nm ak).
Notation frun := (BridgeDefs.frun nm ak).
Notation dnode := (BridgeDefs.dnode nm ak).
Notation dnodes := (BridgeDefs.dnodes nm ak).
Notation file_nodes := (BridgeDefs.file_nodes nm ak).

Lemma frun_app a b s : frun (a ++ b) s = match frun a s with Some s' => frun b s' | None => None end.
Proof. revert s; induction a as [|c a IH]; intros s; cbn [app frun]; [reflexivity|]. destruct (fstep s c); auto. Qed.

Lemma frun_expr cs : forall ops s, all_some (bops nm ak cs) = Some ops ->
  frun cs s = match brun ops (stk s) with
              | Some stk' => Some {| back := back s; pend := pend s; stk := stk'; pegn := pegn s |}
              | None => None
              end.
Proof.
  induction cs as [|c cs IH]; intros ops s H; cbn [bops map all_some] in H.
  - inv H. cbn [frun brun]. destruct s; reflexivity.
  - destruct (bop_of nm ak c) as [o|] eqn:Eo; [|discriminate]. fold (bops nm ak cs) in H.
    destruct (all_some (bops nm ak cs)) as [ops'|] eqn:Ea; [|discriminate]. inv H.
    cbn [frun brun]. unfold fstep. rewrite Eo. destruct (bstep (stk s) o) as [stk'|]; [|reflexivity].
    rewrite (IH ops' _ eq_refl). reflexivity.
Qed.

Lemma frun_header l s : frun (map hcall l) s = Some {| back := back s ++ map hnode l; pend := pend s; stk := stk s; pegn := pegn s |}.
Proof.
  revert s; induction l as [|h l IH]; intros s; cbn [map frun].
  - rewrite app_nil_r. destruct s; reflexivity.
  - destruct h; cbn [hcall fstep bop_of]; rewrite IH; unfold push_back; cbn [back pend stk pegn hnode]; rewrite <- app_assoc; reflexivity.
Qed.
Lemma frun_incalls n s : frun (incalls n) s = Some {| back := back s ++ innodes n; pend := pend s; stk := stk s; pegn := pegn s |}.
Proof.
  destruct n as [[[id sp]|] path]; unfold incalls, innodes, push_back; cbn [in_alias in_path app frun fstep bop_of back pend stk pegn];
    unfold push_back; cbn [back pend stk pegn]; rewrite <- ?app_assoc; reflexivity.
Qed.
Lemma frun_mitems l : forall s, frun (flat_map (fun ns : iname * list rune => incalls (fst ns)) l) s =
  Some {| back := back s ++ flat_map (fun ns : iname * list rune => innodes (fst ns)) l; pend := pend s; stk := stk s; pegn := pegn s |}.
Proof.
  induction l as [|ns l IH]; intros s; cbn [flat_map frun].
  - rewrite app_nil_r. destruct s; reflexivity.
  - rewrite frun_app, frun_incalls, IH. cbn [back pend stk pegn]. rewrite <- app_assoc. reflexivity.
Qed.
Lemma frun_imports l : forall s, frun (flat_map impcalls l) s =
  Some {| back := back s ++ flat_map impnodes l; pend := pend s; stk := stk s; pegn := pegn s |}.
Proof.
  induction l as [|i l IH]; intros s; cbn [flat_map frun].
  - rewrite app_nil_r. destruct s; reflexivity.
  - rewrite frun_app. destruct i; cbn [impcalls impnodes]; rewrite ?frun_incalls, ?frun_mitems, IH; cbn [back pend stk pegn]; rewrite <- app_assoc; reflexivity.
Qed.

Lemma frun_def d s : def_ok d -> pend s = None -> stk s = [] ->
  exists n, dnode d = Some n /\ frun (dcalls d) s = Some {| back := back s ++ [n]; pend := None; stk := []; pegn := pegn s |}.
Proof.
  intros (_ & _ & _ & Hw) Hp Hs. destruct (calls_build_the_tree nm ak _ Hw) as (tree & He & Hb).
  exists (NRule (d_name d) tree). unfold dnode. rewrite He. split; [reflexivity|].
  unfold dcalls. rewrite !frun_app. cbn [frun fstep bop_of]. rewrite Hp, Hs.
  specialize (Hb []). unfold build in Hb. destruct (all_some (bops nm ak (xcalls (d_body d)))) as [ops|] eqn:Ea; [|discriminate].
  rewrite frun_app, (frun_expr _ ops _ Ea). cbn [stk]. rewrite Hb. cbn [frun fstep bop_of pend stk back pegn]. reflexivity.
Qed.
Lemma frun_defs l : forall s, defs_ok l -> pend s = None -> stk s = [] ->
  exists ns, dnodes l = Some ns /\ frun (flat_map dcalls l) s = Some {| back := back s ++ ns; pend := None; stk := []; pegn := pegn s |}.
Proof.
  induction l as [|d l IH]; intros s Hok Hp Hs; cbn [flat_map dnodes defs_ok] in *.
  - exists []. split; [reflexivity|]. cbn [frun]. rewrite app_nil_r. destruct s; cbn in *; subst; reflexivity.
  - destruct Hok as (Hd & _ & Hl). destruct (frun_def d s Hd Hp Hs) as (n & En & Hr).
    destruct (IH {| back := back s ++ [n]; pend := None; stk := []; pegn := pegn s |} Hl eq_refl eq_refl) as (ns & Ens & Hrs).
    exists (n :: ns). rewrite En, Ens. split; [reflexivity|]. rewrite frun_app, Hr, Hrs. cbn [back pegn]. rewrite <- app_assoc. reflexivity.
Qed.

(** the calls of a well-formed file, run through the builder, leave exactly the nodes the file denotes *)
Theorem file_calls_build f : file_ok f ->
  exists nodes, file_nodes f = Some nodes /\
    frun (fcalls f) finit = Some {| back := nodes; pend := None; stk := []; pegn := None |}.
Proof.
  intros (_ & _ & _ & _ & _ & _ & _ & _ & _ & _ & _ & _ & _ & _ & _ & _ & Hdefs).
  unfold fcalls, file_nodes.
  rewrite frun_app, frun_header. cbn [back pend stk pegn finit].
  rewrite frun_app. cbn [frun fstep bop_of]. unfold push_back. cbn [back pend stk pegn].
  rewrite frun_app, frun_imports. cbn [back pend stk pegn].
  rewrite frun_app. cbn [frun fstep bop_of back pend stk pegn].
  rewrite frun_app. cbn [frun fstep bop_of back pend stk pegn].
  destruct (frun_defs (f_defs f) {| back := ((([] ++ map hnode (f_header f)) ++ [NPackage (f_pkg f)]) ++ flat_map impnodes (f_imports f)) ++ [NPeg (f_peg f) (f_state f)];
                                    pend := None; stk := []; pegn := None |} Hdefs eq_refl eq_refl) as (ns & Ens & Hr).
  rewrite Ens. eexists. split; [reflexivity|]. rewrite Hr. cbn [back pegn app]. rewrite <- !app_assoc. reflexivity.
Qed.

End FB.
