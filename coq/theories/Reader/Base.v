(** The front end's own parser, read as a relation: peg.peg's rule tree (Generated/PegPeg.v, regenerated
    from the source on every run) under the reference semantics, with the builder calls its actions make
    ([C], [Cs], [Ca] over [T] of Proofs/PegRel.v, one rule per construct, and the repetitions read item by item).
    The second half is the tactics with which the other files of Reader/ run that tree on an input known by its
    first characters: [lookup], [notptx] and [into_rule] find a rule in the tree by computation; [ko_run] and
    [c_run] (entered through [korun], [crun], [cgo]) are a symbolic executor that proves a failure or a success
    step by step and takes what it cannot compute, a repetition above all, from the facts of the caller
    ([known]); [at_sat], [at1], [atn], [atl] name the input at the positions passed; [zr], [zlia], [lenlia],
    [norm_app] are the arithmetic on [rune] and on lengths. *)
From PegV Require Import Base.Tac Base.ListX Spec.Syntax Spec.Peg Spec.Tokens Proofs.PegFacts Proofs.PegRel Model.Calls Generated.PegPeg.
From PegV Require Export Reader.Defs.

Definition arg_of (a : carg) (txt : list rune) : list rune :=
  match a with ANone => [] | AText => txt | AConst s => s end.
Definition calls1 (e : evt) : list call :=
  map (fun ca : bcall * carg => (fst ca, arg_of (snd ca) (snd e))) (nth (fst e) pegpeg_calls []).
Definition calls (evs : list evt) : list call := flat_map calls1 evs.

Lemma calls_app a b : calls (a ++ b) = calls a ++ calls b.
Proof. apply flat_map_app. Qed.

Section Reader.
Variable buf : list rune.
Variable penv : nat -> nat -> bool.

Notation G := pegpeg_d.
Notation PTX := pegpeg_d_ptx.
Notation At := (At buf).
Notation ok := (ok G PTX buf penv).
Notation ko := (ko G PTX buf penv).
Notation kos := (kos G PTX buf penv).
Notation oks := (oks G PTX buf penv).
Notation koa := (koa G PTX buf penv).
Notation T := (T G PTX buf penv).
Notation Ts := (Ts G PTX buf penv).
Notation Ta := (Ta G PTX buf penv).
Notation sub := (sub buf).

(** [C e p p' cs t t']: e succeeds from p to p', its actions make the builder calls cs, the text register goes from t to t' *)
Definition C (e : expr) (p p' : nat) (cs : list call) (t t' : nat * nat) : Prop :=
  exists evs, T e p p' evs t t' /\ calls evs = cs.
Definition Cs (es : list expr) (p p' : nat) (cs : list call) (t t' : nat * nat) : Prop :=
  exists evs, Ts es p p' evs t t' /\ calls evs = cs.
Definition Ca (es : list expr) (p p' : nat) (cs : list call) (t t' : nat * nat) : Prop :=
  exists evs, Ta es p p' evs t t' /\ calls evs = cs.

Lemma C_ok e p p' cs t t' : C e p p' cs t t' -> exists f, ok e p p' f.
Proof. intros (evs & (f & O & _) & _). exists f. exact O. Qed.
Lemma C_silent e p p' t : ok e p p' [] -> C e p p' [] t t.
Proof. intros H. exists []. split; [apply T_silent; exact H|reflexivity]. Qed.
Lemma Cs_nil p t : Cs [] p p [] t t.
Proof. exists []. split; [apply Ts_nil|reflexivity]. Qed.
Lemma Cs_cons e es p p1 p2 c1 c2 t t1 t2 : C e p p1 c1 t t1 -> Cs es p1 p2 c2 t1 t2 -> Cs (e :: es) p p2 (c1 ++ c2) t t2.
Proof. intros (e1 & H1 & E1) (e2 & H2 & E2). exists (e1 ++ e2). split; [eapply Ts_cons; eassumption|rewrite calls_app; congruence]. Qed.
Lemma Cs_app l1 l2 p p1 p2 c1 c2 t t1 t2 : Cs l1 p p1 c1 t t1 -> Cs l2 p1 p2 c2 t1 t2 -> Cs (l1 ++ l2) p p2 (c1 ++ c2) t t2.
Proof. intros (e1 & H1 & E1) (e2 & H2 & E2). exists (e1 ++ e2). split; [eapply Ts_app; eassumption|rewrite calls_app; congruence]. Qed.
Lemma Cs_oks es p p' cs t t' : Cs es p p' cs t t' -> exists f, oks es p p' f.
Proof. intros (evs & (f & O & _) & _). exists f. exact O. Qed.
Lemma kos_app_Cs l1 l2 p p1 cs t t1 : Cs l1 p p1 cs t t1 -> kos l2 p1 -> kos (l1 ++ l2) p.
Proof. intros H K. destruct (Cs_oks _ _ _ _ _ _ H) as [f O]. eapply kos_app; eassumption. Qed.
Lemma C_seq es p p' cs t t' : Cs es p p' cs t t' -> C (ESeq es) p p' cs t t'.
Proof. intros (evs & H & E). exists evs. split; [apply T_seq; exact H|exact E]. Qed.
Lemma Ca_head e es p p' cs t t' : C e p p' cs t t' -> Ca (e :: es) p p' cs t t'.
Proof. intros (evs & H & E). exists evs. split; [apply Ta_head; exact H|exact E]. Qed.
Lemma Ca_tail e es p p' cs t t' : ko e p -> Ca es p p' cs t t' -> Ca (e :: es) p p' cs t t'.
Proof. intros K (evs & H & E). exists evs. split; [apply Ta_tail; assumption|exact E]. Qed.
Lemma C_alt es p p' cs t t' : Ca es p p' cs t t' -> C (EAlt es) p p' cs t t'.
Proof. intros (evs & H & E). exists evs. split; [apply T_alt; exact H|exact E]. Qed.
Lemma C_name r b p p' cs t t' : nth_error G r = Some (RBody b) -> r <> PTX -> C b p p' cs t t' -> C (EName r) p p' cs t t'.
Proof. intros Hr Hp (evs & H & E). exists evs. split; [eapply T_name; eassumption|exact E]. Qed.
Lemma C_enter r n w es es' p s p' cs t t' : nth_error G r = Some (RBody (EAlt es)) -> r <> PTX ->
  At p s -> in_window w s -> skip_dead (deads G n) w es = es' -> Ca es' p p' cs t t' -> C (EName r) p p' cs t t'.
Proof.
  intros Hr Hp Hat W <- (evs & (f & O & H) & E). eapply C_name; [exact Hr|exact Hp|]. apply C_alt.
  exists evs. split; [|exact E]. exists f. split; [|exact H]. eapply oka_skip_dead; eassumption.
Qed.
(** [C_enter] where the first alternative left is the one that matches: the others stay out of the goal *)
Lemma C_pick r n w es a p s p' cs t t' : nth_error G r = Some (RBody (EAlt es)) -> r <> PTX ->
  At p s -> in_window w s -> hd_error (skip_dead (deads G n) w es) = Some a -> C a p p' cs t t' -> C (EName r) p p' cs t t'.
Proof.
  intros Hr Hp Hat W E H. eapply (C_enter r n w es); [exact Hr|exact Hp|exact Hat|exact W|reflexivity|].
  destruct (skip_dead (deads G n) w es); inv E. apply Ca_head. exact H.
Qed.
Lemma ko_dead e n w p s : At p s -> in_window w s -> dead (deads G n) e w = true -> ko e p.
Proof. intros Hat W D. eapply dead_ko; [apply deads_ko|eassumption..]. Qed.
Lemma C_act r k p t : nth_error G r = Some (RAct k) -> r <> PTX -> C (EName r) p p (calls1 (k, sub t)) t t.
Proof. intros Hr Hp. exists [(k, sub t)]. split; [apply T_act; assumption|cbn; apply app_nil_r]. Qed.
(** an action that passes on the captured text, that text being known as [m] *)
Lemma C_act_text r k b m p t : nth_error G r = Some (RAct k) -> r <> PTX -> nth k pegpeg_calls [] = [(b, AText)] -> sub t = m ->
  C (EName r) p p [(b, m)] t t.
Proof. intros Hr Hp Hk <-. pose proof (C_act r k p t Hr Hp) as H. unfold calls1 in H. cbn [fst snd] in H. rewrite Hk in H. exact H. Qed.
Lemma C_and e p p' f t : ok e p p' f -> C (EAnd e) p p [] t t.
Proof. intros O. apply C_silent. eapply ok_and; eassumption. Qed.
Lemma C_not e p t : ko e p -> C (ENot e) p p [] t t.
Proof. intros K. apply C_silent. apply ok_not; assumption. Qed.
Lemma C_query_some e p p' cs t t' : C e p p' cs t t' -> C (EQuery e) p p' cs t t'.
Proof. intros (evs & H & E). exists evs. split; [apply T_query_some; exact H|exact E]. Qed.
Lemma C_query_none e p t : ko e p -> C (EQuery e) p p [] t t.
Proof. intros K. apply C_silent. apply ok_query_none; assumption. Qed.
Lemma C_star_nil e p t : ko e p -> C (EStar e) p p [] t t.
Proof. intros K. apply C_silent. apply ok_star_nil; assumption. Qed.
Lemma C_star_cons e p p1 p2 c1 c2 t t1 t2 : C e p p1 c1 t t1 -> C (EStar e) p1 p2 c2 t1 t2 -> C (EStar e) p p2 (c1 ++ c2) t t2.
Proof. intros (e1 & H1 & E1) (e2 & H2 & E2). exists (e1 ++ e2). split; [eapply T_star_cons; eassumption|rewrite calls_app; congruence]. Qed.
Lemma C_plus e p p1 p2 c1 c2 t t1 t2 : C e p p1 c1 t t1 -> C (EStar e) p1 p2 c2 t1 t2 -> C (EPlus e) p p2 (c1 ++ c2) t t2.
Proof. intros (e1 & H1 & E1) (e2 & H2 & E2). exists (e1 ++ e2). split; [eapply T_plus; eassumption|rewrite calls_app; congruence]. Qed.
Lemma C_push e p p' cs t t' : C e p p' cs t t' -> C (EPush e) p p' cs t (p, p').
Proof. intros (evs & H & E). exists evs. split; [eapply T_push; exact H|exact E]. Qed.
Lemma C_char c p t : nth_error buf p = Some c -> C (EChar c) p (S p) [] t t.
Proof. intros H. apply C_silent. apply ok_char; exact H. Qed.
Lemma C_dot c p t : nth_error buf p = Some c -> C EDot p (S p) [] t t.
Proof. intros H. apply C_silent. eapply ok_dot; exact H. Qed.
Lemma C_range lo hi c p t : nth_error buf p = Some c -> in_range lo hi c = true -> C (ERange lo hi) p (S p) [] t t.
Proof. intros H R. apply C_silent. eapply ok_range; eassumption. Qed.

Lemma C_ko_excl e p p' cs t t' : C e p p' cs t t' -> ko e p -> False.
Proof. intros H K. destruct (C_ok _ _ _ _ _ _ H) as [f O]. eapply ok_ko_excl; eassumption. Qed.

Lemma C_eq e p p1 p2 c1 c2 t t1 t2 : C e p p1 c1 t t1 -> p1 = p2 -> c1 = c2 -> t1 = t2 -> C e p p2 c2 t t2.
Proof. intros H -> -> ->. exact H. Qed.

Lemma Cs_eq es p p1 p2 c1 c2 t t1 t2 : Cs es p p1 c1 t t1 -> p1 = p2 -> c1 = c2 -> t1 = t2 -> Cs es p p2 c2 t t2.
Proof. intros H -> -> ->. exact H. Qed.

(** an action that passes the captured text on; the [++ []] is what a run leaves behind the last item of a sequence *)
Lemma text_call k b m s p q : nth k pegpeg_calls [] = [(b, AText)] -> At p (m ++ s) -> q = (p + length m)%nat ->
  calls1 (k, sub (p, q)) ++ [] = [(b, m)].
Proof. intros Hk Hat ->. unfold calls1. cbn [fst snd]. rewrite Hk, (At_sub _ _ _ _ Hat). reflexivity. Qed.

Lemma ko_rule r b p : nth_error G r = Some (RBody b) -> ko b p -> ko (EName r) p.
Proof. apply ko_name. Qed.

Lemma At_head p c s : At p (c :: s) -> nth_error buf p = Some c.
Proof. intros H. destruct (At_cons _ _ _ _ H) as [A _]. exact A. Qed.
Lemma At_tail p c s : At p (c :: s) -> At (S p) s.
Proof. intros H. destruct (At_cons _ _ _ _ H) as [_ A]. exact A. Qed.
Lemma ko_char_at c p s : At p s -> (forall c' s', s = c' :: s' -> c' <> c) -> ko (EChar c) p.
Proof.
  intros H N. apply ko_char. intros c' E. destruct s as [|c0 s].
  - rewrite (At_nil _ _ H) in E. discriminate.
  - rewrite (At_head _ _ _ H) in E. inv E. eapply N. reflexivity.
Qed.
Lemma ko_range_at lo hi p s : At p s -> (forall c s', s = c :: s' -> in_range lo hi c = false) -> ko (ERange lo hi) p.
Proof.
  intros H N. apply ko_range. intros c E. destruct s as [|c0 s].
  - rewrite (At_nil _ _ H) in E. discriminate.
  - rewrite (At_head _ _ _ H) in E. inv E. eapply N. reflexivity.
Qed.
Lemma ko_char_cons c c0 p s : At p (c0 :: s) -> c0 <> c -> ko (EChar c) p.
Proof. intros H N. eapply ko_char_at; [exact H|]. intros c' s' E. inv E. exact N. Qed.
Lemma ko_range_cons lo hi c0 p s : At p (c0 :: s) -> in_range lo hi c0 = false -> ko (ERange lo hi) p.
Proof. intros H N. eapply ko_range_at; [exact H|]. intros c' s' E. inv E. exact N. Qed.
Lemma ko_dot_at p : At p [] -> ko EDot p.
Proof. intros H. apply ko_dot. apply At_nil. exact H. Qed.

Lemma C_star_run e (cls : rune -> bool) :
  (forall p c s t, At p (c :: s) -> cls c = true -> C e p (S p) [] t t) ->
  (forall p s, At p s -> (forall c s', s = c :: s' -> cls c = false) -> ko e p) ->
  forall r p rest t, forallb cls r = true -> (forall c s', rest = c :: s' -> cls c = false) -> At p (r ++ rest) ->
  C (EStar e) p (p + length r)%nat [] t t.
Proof.
  intros Hok Hko. induction r as [|c r IH]; intros p rest t Hr Hn Hat; cbn [app length forallb] in *.
  - eapply C_eq; [apply C_star_nil; eapply Hko; eassumption|lia|reflexivity|reflexivity].
  - apply andb_true_iff in Hr. destruct Hr as [Hc Hr].
    eapply C_eq; [eapply C_star_cons; [eapply Hok; eassumption|eapply IH; [exact Hr|exact Hn|eapply At_tail; exact Hat]]
                 |lia|reflexivity|reflexivity].
Qed.

(** a repetition read item by item: [inv] is what is known of the items still to come, and goes from a list to its
    tail *)
Lemma C_star_items {A} (showx : A -> list rune) (cl : A -> list call) (inv : list A -> Prop) e tl :
  (forall x l p t, inv (x :: l) -> At p (showx x ++ flat_map showx l ++ tl) ->
     inv l /\ exists t', C e p (p + length (showx x))%nat (cl x) t t') ->
  (forall p, inv [] -> At p tl -> ko e p) ->
  forall l p t, inv l -> At p (flat_map showx l ++ tl) ->
  exists t', C (EStar e) p (p + length (flat_map showx l))%nat (flat_map cl l) t t'.
Proof.
  intros Hstep Hend. induction l as [|x l IH]; intros p t Hi Hat; cbn [flat_map app length] in *.
  - rewrite Nat.add_0_r. exists t. apply C_star_nil, Hend; assumption.
  - rewrite <- app_assoc in Hat. destruct (Hstep x l p t Hi Hat) as [Hi' [t1 H1]].
    destruct (IH _ t1 Hi' (At_app _ _ _ _ Hat)) as [t2 H2]. exists t2.
    eapply C_eq; [eapply C_star_cons; [exact H1|exact H2]|rewrite app_length; lia|reflexivity|reflexivity].
Qed.

(** a repetition that reads a text piece by piece, a piece being whatever one round takes ("\r\n", a whole comment):
    each is nonempty, and [inv] holds of what is left *)
Lemma C_star_pieces e (inv : list rune -> Prop) tl :
  (forall s, inv s -> s <> [] -> exists m s', s = m ++ s' /\ (0 < length m)%nat /\ inv s' /\
     forall p t, At p (s ++ tl) -> C e p (p + length m)%nat [] t t) ->
  (forall p, At p tl -> ko e p) ->
  forall s p t, inv s -> At p (s ++ tl) -> C (EStar e) p (p + length s)%nat [] t t.
Proof.
  intros Hstep Hend s. remember (length s) as n eqn:En. revert s En.
  induction n as [n IH] using lt_wf_ind. intros s -> p t Hi Hat. destruct s as [|c s0].
  - eapply C_eq; [apply C_star_nil, Hend; exact Hat|cbn [length]; lia|reflexivity|reflexivity].
  - destruct (Hstep _ Hi ltac:(discriminate)) as (m & s' & E & Lp & Hi' & H1).
    assert (Hat' : At (p + length m)%nat (s' ++ tl)) by (apply At_app; rewrite app_assoc, <- E; exact Hat).
    assert (Ls : length (c :: s0) = (length m + length s')%nat) by (rewrite E, app_length; reflexivity).
    eapply C_eq; [eapply C_star_cons; [exact (H1 p t Hat)|exact (IH (length s') ltac:(lia) s' eq_refl _ t Hi' Hat')]
                 |lia|reflexivity|reflexivity].
Qed.

End Reader.

Ltac lookup := vm_compute; reflexivity.
Ltac notptx := let H := fresh in intro H; vm_compute in H; discriminate H.
Ltac into_rule := eapply C_name; [lookup | notptx | ].
Ltac ko_into_rule := eapply ko_name; [lookup | ].

Section Auto.
Variable buf : list rune.
Variable penv : nat -> nat -> bool.
Notation G := pegpeg_d.
Notation PTX := pegpeg_d_ptx.
Lemma kos_tail_C e es p p1 cs t t1 : C buf penv e p p1 cs t t1 -> kos G PTX buf penv es p1 -> kos G PTX buf penv (e :: es) p.
Proof. intros H K. destruct (C_ok _ _ _ _ _ _ _ _ H) as [f O]. eapply kos_tail; eassumption. Qed.
Lemma C_and_C e p p' cs t t1 t0 : C buf penv e p p' cs t t1 -> C buf penv (EAnd e) p p [] t0 t0.
Proof. intros H. destruct (C_ok _ _ _ _ _ _ _ _ H) as [f O]. eapply C_and; eassumption. Qed.
Lemma ko_not_C e p p' cs t t1 : C buf penv e p p' cs t t1 -> ko G PTX buf penv (ENot e) p.
Proof. intros H. destruct (C_ok _ _ _ _ _ _ _ _ H) as [f O]. eapply ko_not; eassumption. Qed.
Lemma ko_and_ko e p : ko G PTX buf penv e p -> ko G PTX buf penv (EAnd e) p.
Proof. apply ko_and. Qed.
End Auto.

Ltac at_sat :=
  repeat match goal with
  | H : PegRel.At ?b ?p (?c :: ?s) |- _ =>
      lazymatch goal with
      | _ : PegRel.At b (S p) _ |- _ => fail
      | _ => pose proof (At_tail _ _ _ _ H)
      end
  end.


(** a fact the caller has supplied about this expression at this position; looked for by expression and position
    first, since a mismatch found by unifying whole statements unfolds [ko] and [C] before it gives up *)
Ltac known_ko :=
  lazymatch goal with
  | |- PegRel.ko _ _ _ _ ?e ?p => match goal with H : PegRel.ko _ _ _ _ ?e' ?p' |- _ => unify e e'; unify p p'; exact H end
  end.
Ltac known :=
  lazymatch goal with
  | |- PegRel.ko _ _ _ _ _ _ => known_ko
  | |- C _ _ ?e ?p _ _ _ _ => match goal with H : C _ _ ?e' ?p' _ _ _ _ |- _ => unify e e'; unify p p'; exact H end
  end.

(** a small symbolic executor, for an expression at a position whose next characters are known: [ko_run] proves that
    it fails, [c_run] that it succeeds, finding end position, calls and text register *)
Ltac ko_run := first [ known | ko_step ]
with ko_step :=
  lazymatch goal with
  | |- PegRel.ko _ _ _ _ (EChar _) _ =>
      first [ eapply ko_char_cons; [eassumption | first [assumption | discriminate | lia]]
            | eapply ko_char_at; [eassumption | discriminate] ]
  | |- PegRel.ko _ _ _ _ (ERange _ _) _ =>
      first [ eapply ko_range_cons; [eassumption | first [reflexivity | unfold in_range; lia]]
            | eapply ko_range_at; [eassumption | discriminate] ]
  | |- PegRel.ko _ _ _ _ EDot _ => eapply ko_dot_at; eassumption
  | |- PegRel.ko _ _ _ _ (ESeq _) _ => apply ko_seq; ko_run
  | |- PegRel.kos _ _ _ _ (_ :: _) _ => first [ apply kos_head; ko_run | eapply (kos_tail_C _ _ _ _ _ _ _ (0%nat, 0%nat)); [c_run | ko_run] ]
  | |- PegRel.ko _ _ _ _ (EAlt _) _ => apply ko_alt; ko_run
  | |- PegRel.koa _ _ _ _ [] _ => apply koa_nil
  | |- PegRel.koa _ _ _ _ (_ :: _) _ => apply koa_cons; [ko_run | ko_run]
  | |- PegRel.ko _ _ _ _ (EName _) _ => ko_into_rule; ko_run
  | |- PegRel.ko _ _ _ _ (ENot _) _ => eapply (ko_not_C _ _ _ _ _ _ (0%nat, 0%nat)); c_run
  | |- PegRel.ko _ _ _ _ (EAnd _) _ => apply ko_and; ko_run
  | |- PegRel.ko _ _ _ _ (EPush _) _ => apply ko_push; ko_run
  | |- PegRel.ko _ _ _ _ (EPlus _) _ => apply ko_plus; ko_run
  end
with c_run :=
  (* a fact supplied by the caller is used as it stands; none is ever about a single character.  Callers state
     their facts for every text register ([pose proof (fun t => ...)]), which is what the two patterns on a
     quantified hypothesis look for.  Where only the success of an operand matters and the conclusion does not
     mention the register ([kos_tail_C], [ko_not_C], [C_and_C]), the operand is run from the literal [(0, 0)],
     which stands for any register. *)
  lazymatch goal with
  | |- C _ _ (EChar _) _ _ _ _ _ => c_step
  | |- C _ _ (ERange _ _) _ _ _ _ _ => c_step
  | |- Cs _ _ [] _ _ _ _ _ => c_step
  | |- _ =>
    first [ known | match goal with H : forall _ : nat * nat, _ |- _ => solve [eapply H] end
          | match goal with H : forall (_ : nat) (_ : nat * nat), _ |- _ => solve [eapply H] end | c_step ]
  end
with c_step :=
  lazymatch goal with
  | |- C _ _ (EChar _) _ _ _ _ _ => eapply C_char; eapply At_head; eassumption
  | |- C _ _ EDot _ _ _ _ _ => eapply C_dot; eapply At_head; eassumption
  | |- C _ _ (ERange _ _) _ _ _ _ _ => eapply C_range; [eapply At_head; eassumption | first [reflexivity | unfold in_range; lia]]
  | |- C _ _ (ESeq _) _ _ _ _ _ => apply C_seq; c_run
  | |- Cs _ _ [] _ _ _ _ _ => apply Cs_nil
  | |- Cs _ _ (_ :: _) _ _ _ _ _ => eapply Cs_cons; [c_run | c_run]
  | |- C _ _ (EAlt _) _ _ _ _ _ => apply C_alt; c_run
  | |- Ca _ _ (_ :: _) _ _ _ _ _ =>
      (* an alternative already known to fail is not tried *)
      tryif (apply Ca_tail; [known_ko | ]) then c_run
      else first [ apply Ca_head; c_run | apply Ca_tail; [ko_run | c_run] ]
  | |- C _ _ (EName _) _ _ _ _ _ =>
      (* an action that passes on a text the caller has named ([sub buf t = m] in the context) makes its call with [m] *)
      first [ eapply C_act_text; [lookup | notptx | reflexivity | eassumption] | eapply C_act; [lookup | notptx] | into_rule; c_run ]
  | |- C _ _ (ENot _) _ _ _ _ _ => apply C_not; ko_run
  | |- C _ _ (EAnd _) _ _ _ _ _ => eapply (C_and_C _ _ _ _ _ _ (0%nat, 0%nat)); c_run
  | |- C _ _ (EQuery _) _ _ _ _ _ => first [ apply C_query_some; c_run | apply C_query_none; ko_run ]
  (* a repetition that reads something is a fact of the caller's, proved by induction *)
  | |- C _ _ (EStar _) _ _ _ _ _ => apply C_star_nil; ko_run
  | |- C _ _ (EPlus _) _ _ _ _ _ => eapply C_plus; [c_run | c_run]
  | |- C _ _ (EPush _) _ _ _ _ _ => eapply C_push; c_run
  end.
(** the facts [At (S p) s] are all there after one saturation: a run adds none *)
Ltac korun := at_sat; ko_run.
Ltac crun := at_sat; c_run.

(** run, then compare end position, calls and text register with what the goal states: positions as sums of lengths,
    call lists up to empty segments and bracketing *)
Ltac cgo := eapply C_eq; [crun | try reflexivity; repeat (first [rewrite app_length | progress cbn [length app]]); try lia
                         | cbn [app]; first [reflexivity | rewrite ?app_nil_r, <- ?app_assoc; try reflexivity] | try reflexivity].

(** name the input after one known character ([at1]), after a known prefix ([atn]) *)
Tactic Notation "at1" hyp(H) "as" ident(N) := pose proof (At_tail _ _ _ _ H) as N.
Tactic Notation "atn" hyp(H) "as" ident(N) := pose proof (At_app _ _ _ _ H) as N.
(** the same at position [length m + p], which computes once [m] is a literal *)
Tactic Notation "atl" hyp(H) "as" ident(N) := pose proof (At_app' _ _ _ _ H) as N.

(** [rune] is [Z]: make the two spellings one before arithmetic or rewriting *)
Ltac zr := unfold rune in *.
Ltac zlia := unfold rune in *; lia.
Ltac lenlia := unfold rune in *; repeat rewrite app_length in *; cbn [length] in *; repeat rewrite app_length in *; cbn [length] in *; lia.
Ltac norm_app H := repeat (first [rewrite <- app_assoc in H | rewrite <- app_comm_cons in H]); cbn [app] in H.
