(** The reader theorems in closed form: the front end's own grammar (Generated/PegPeg.v), run by the reference
    semantics on the text of a written expression, succeeds on all of it, and the builder calls its actions
    make, run through the tree builder, leave exactly the tree the expression denotes ([reader_expression], and
    [reader_expression_in_context] with text around it).  [reader_file] is the same for a whole grammar file
    and the rule Grammar: the builder is left holding the nodes the file denotes and nothing half-built.  Two
    samples, an expression with every kind of construct and a file around it, show that [wf] and [file_ok] are
    not vacuous. *)
From PegV Require Import Base.Tac Base.ListX Spec.Syntax Spec.Peg Spec.Tokens Proofs.PegRel Model.Calls Model.Front
  Generated.PegPeg Reader.Base Reader.Lex Reader.Chars Reader.Lits Reader.Expr Reader.Bridge Reader.File Reader.FileBridge Reader.Decide Reader.DecideFile.
Local Open Scope Z_scope.

Section Top.
Variable nm : list rune -> nat.
Variable ak : list rune -> nat.
Variable penv : nat -> nat -> bool.

(** the calls Execute() makes over a derivation: each action's calls, with the captured text *)
Definition calls_of_forest (buf : list rune) (f : list dt) : list call :=
  calls (fst (tr pegpeg_d pegpeg_d_ptx buf f (0%nat, 0%nat))).

Theorem reader_expression_in_context buf e rest p :
  wf e -> At buf p (show e ++ rest) -> fol buf penv (p + length (show e))%nat rest ->
  (glue e = true -> not_icont_head rest) ->
  ko pegpeg_d pegpeg_d_ptx buf penv (EName pr_Prefix) (p + length (show e))%nat ->
  ko pegpeg_d pegpeg_d_ptx buf penv (EName pr_Slash) (p + length (show e))%nat -> head_ne 47 rest ->
  exists n f evs tree,
    peg_ev pegpeg_d pegpeg_d_ptx buf penv n (EName pr_Expression) p = Some (Succ (p + length (show e))%nat f, evs) /\
    calls_of_forest buf f = xcalls e /\
    (forall stk, build nm ak (xcalls e) stk = Some (tree :: stk)) /\ elab (erase nm ak e) = Some tree.
Proof.
  intros Hw Hat Hf Hg Kp Ks H47.
  destruct (expression_ok buf penv e Hw rest p (0%nat, 0%nat) Hat Hf Hg Kp Ks H47) as (t' & evs' & (f & (n & evs & Hev) & Htr) & Hc).
  destruct (calls_build_the_tree nm ak e Hw) as (tree & He & Hb).
  exists n, f, evs, tree. split; [exact Hev|]. split; [|split; assumption].
  unfold calls_of_forest. rewrite Htr. exact Hc.
Qed.

(** the expression is the whole input *)
Theorem reader_expression e : wf e ->
  exists n f evs tree,
    peg_ev pegpeg_d pegpeg_d_ptx (show e) penv n (EName pr_Expression) 0 = Some (Succ (length (show e)) f, evs) /\
    calls_of_forest (show e) f = xcalls e /\
    build nm ak (xcalls e) [] = Some [tree] /\ elab (erase nm ak e) = Some tree.
Proof.
  intros Hw.
  assert (Hat : At (show e) 0 (show e ++ [])) by (rewrite app_nil_r; apply At_start).
  assert (Hend : At (show e) (0 + length (show e)) []).
  { pose proof (At_app _ _ _ _ Hat) as H. exact H. }
  destruct (reader_expression_in_context (show e) e [] 0%nat Hw Hat (fol_eof _ penv _ Hend)) as (n & f & evs & tree & H1 & H2 & H3 & H4).
  - intros _ c r E. discriminate E.
  - eapply prefix_ko; [exact Hend|]. intros c r E. discriminate E.
  - eapply tok_ko; [lookup|exact Hend|]. intros c r E. discriminate E.
  - intros c r E. discriminate E.
  - exists n, f, evs, tree. cbn [Nat.add] in H1. auto.
Qed.

(** a whole grammar file *)
Theorem reader_file f : file_ok f ->
  exists n fo evs nodes,
    peg_ev pegpeg_d pegpeg_d_ptx (fshow f) penv n (EName pr_Grammar) 0 = Some (Succ (length (fshow f)) fo, evs) /\
    calls_of_forest (fshow f) fo = fcalls f /\
    frun nm ak (fcalls f) finit = Some {| back := nodes; pend := None; stk := []; pegn := None |} /\
    file_nodes nm ak f = Some nodes.
Proof.
  intros Hok.
  destruct (grammar_ok (fshow f) penv f (0%nat, 0%nat) Hok eq_refl) as (t' & evs' & (fo & (n & evs & Hev) & Htr) & Hc).
  destruct (file_calls_build nm ak f Hok) as (nodes & Hn & Hr).
  exists n, fo, evs, nodes. split; [exact Hev|]. split; [|split; assumption].
  unfold calls_of_forest. rewrite Htr. exact Hc.
Qed.

End Top.

(** non-vacuity: a written expression with every kind of construct is well formed *)
Definition sample : cx :=
  XAlt (XSeq [XName [97] [32]; XSuf 42 (XLit false [KRaw 120; KEsc 110; KHex 120 [52; 49]] []) [32];
              XPre 33 [] (XClass false true [IRange (KRaw 97) (KRaw 122); IChar (KOct [49; 50])] [32]);
              XPush [] (XAlt (XDot []) [([32], XAct [120; 123; 125] [])] None) [32];
              XPredA 38 [] [116] [9]; XGroup [] XEmpty []])
       [([32; 35; 99; 10], XLit true [KRaw 65] [])] (Some [10]).

Lemma sample_wf : wf sample.
Proof. apply wfb_wf. vm_compute. reflexivity. Qed.

(** ... and a whole file:  # c (newline) package p (newline) import x "a/b" (newline) import ( (newline) "c" (newline) ) (newline)
    type T Peg { n int } (newline) a <- [sample]   b (U+2190) 'y' (newline) *)
Definition sample_file : cfile :=
  {| f_header := [HCmt false [32; 99] [10]; HSp [10]];
     f_s_pkg := [32]; f_pkg := [112]; f_s1 := [10];
     f_imports := [ISingle [32] {| in_alias := Some ([120], [32]); in_path := [97; 47; 98] |} [10];
                   IMulti [32] [10] [({| in_alias := None; in_path := [99] |}, [])] [10]];
     f_s_type := [32]; f_peg := [84]; f_s2 := [32]; f_s3 := [32]; f_state := [32; 110; 32; 105; 110; 116; 32]; f_s4 := [10];
     f_defs := [{| d_name := [97]; d_s1 := [32]; d_uni := false; d_s2 := [32]; d_body := sample |};
                {| d_name := [98]; d_s1 := [32]; d_uni := true; d_s2 := [32]; d_body := XLit false [KRaw 121] [10] |}] |}.

Lemma sample_file_ok : file_ok sample_file.
Proof. apply file_okb_sound. vm_compute. reflexivity. Qed.
