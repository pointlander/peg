(** Expressions of the .peg language read back: for an expression as written ([cx] of Reader/Defs.v, with its
    layout) that is well formed ([wf]), the rule of peg.peg for its level - Primary, Suffix, Prefix, Sequence,
    Expression - reads its text [show e], when what follows cannot continue it, and its actions make the
    builder calls [xcalls e].  One lemma per level ([L0] to [L4]) under the induction hypothesis for smaller
    expressions; [levels_ok] ties the knot, [expression_ok] is the statement for the rule Expression.  The file
    begins with what the text of a well-formed expression starts with and stops at ([show_head], [show_stop]).

    Model/Front.v folds case for ASCII letters only, the Go builder (strings.ToLower / ToUpper) for all of
    Unicode: [wf] keeps the end points of a [[a-z]] range below 128 ([ranges_ascii]), where the two agree. *)
From PegV Require Import Base.Tac Base.ListX Spec.Syntax Spec.Peg Proofs.PegRel Model.Calls Generated.PegPeg
  Reader.Base Reader.Lex Reader.Chars Reader.Lits.
From PegV Require Model.Front.
Local Open Scope Z_scope.

Lemma lay_head c r : lay (c :: r) -> c = 32 \/ c = 9 \/ c = 10 \/ c = 13 \/ c = 35 \/ c = 47.
Proof. intros H. inv H; tauto. Qed.

Lemma pstart_ne45 c : pstart c = true -> c <> 45 /\ c <> 47 /\ c <> 41 /\ c <> 62 /\ c <> 63 /\ c <> 42 /\ c <> 43 /\ c <> 8592 /\
  c <> 32 /\ c <> 9 /\ c <> 10 /\ c <> 13 /\ c <> 35.
Proof. unfold pstart, is_istart. lia. Qed.

Lemma size_in_seq y l : In y l -> (size y < size (XSeq l))%nat.
Proof. cbn [size]. induction l as [|x l IH]; intros H; [destruct H|]. cbn [fold_right]. destruct H as [->|H]; [lia|specialize (IH H); lia]. Qed.
Lemma size_in_alt e1 sx l trail : In sx l -> (size (snd sx) < size (XAlt e1 l trail))%nat.
Proof. cbn [size]. induction l as [|y l IH]; intros H; [destruct H|]. cbn [fold_right]. destruct H as [->|H]; [lia|specialize (IH H); lia]. Qed.

Lemma lvl1 e : lvl e = 1%nat -> exists op x s, e = XSuf op x s.
Proof. destruct e; try discriminate. eauto. Qed.
Lemma lvl2 e : lvl e = 2%nat -> (exists op s x, e = XPre op s x) \/ exists op s1 a s2, e = XPredA op s1 a s2.
Proof. destruct e; try discriminate; eauto 6. Qed.
Lemma lvl3 e : lvl e = 3%nat -> exists l, e = XSeq l.
Proof. destruct e; try discriminate. eauto. Qed.
Lemma lvl4 e : lvl e = 4%nat -> (exists e1 l trail, e = XAlt e1 l trail) \/ e = XEmpty.
Proof. destruct e; try discriminate; eauto 6. Qed.
Lemma lvl_le4 e : (lvl e <= 4)%nat.
Proof. destruct e; cbn [lvl]; lia. Qed.

Definition kids (e : cx) : list cx :=
  match e with
  | XGroup _ x _ | XPush _ x _ | XSuf _ x _ | XPre _ _ x => [x]
  | XSeq l => l
  | XAlt e1 l _ => e1 :: map snd l
  | _ => []
  end.
Lemma cx_kids_ind (P : cx -> Prop) : (forall e, Forall P (kids e) -> P e) -> forall e, P e.
Proof.
  intros Hk e. remember (size e) as n eqn:En. revert e En.
  induction n as [n IH] using lt_wf_ind. intros e ->. apply Hk. apply Forall_forall. intros x Hx.
  apply (IH (size x)); [|reflexivity].
  destruct e; cbn [kids In] in Hx; try contradiction; try (destruct Hx as [<-|[]]; cbn [size]; lia).
  - apply size_in_seq. exact Hx.
  - destruct Hx as [<-|Hx]; [cbn [size]; lia|]. apply in_map_iff in Hx. destruct Hx as (sx & <- & Hin). apply size_in_alt. exact Hin.
Qed.

Definition alt_wf (sx : list rune * cx) : Prop := lay (fst sx) /\ head_ne 47 (fst sx) /\ (lvl (snd sx) <= 3)%nat /\ wf (snd sx).

(** what [wf] asks of each form, by computation: [wf e] is inverted for a given [e] by [wf_inv] *)
Definition wf_parts (e : cx) : Prop :=
  match e with
  | XDot s => lay s
  | XName id s => ident_ok id = true /\ lay s
  | XAct a s => bal a /\ lay s
  | XLit dbl ks s => chars_ok (quote_of dbl) ks [quote_of dbl] = true /\ lay s
  | XClass dbl neg items s =>
      class_wf dbl neg items = true /\ citems_ok items (cclose dbl) = true /\ (dbl = true -> ranges_ascii items = true) /\ lay s
  | XGroup s1 e s2 | XPush s1 e s2 => lay s1 /\ wf e /\ lay s2
  | XSuf op e s => is_sufop op /\ lvl e = 0%nat /\ wf e /\ lay s
  | XPre op s e => is_preop op /\ lay s /\ (lvl e <= 1)%nat /\ wf e /\ head_ne 123 (show e)
  | XPredA op s1 a s2 => is_preop op /\ lay s1 /\ bal a /\ lay s2
  | XSeq l => (2 <= length l)%nat /\ Forall (fun x => (lvl x <= 2)%nat /\ wf x) l /\ adj l
  | XAlt e1 l trail =>
      (lvl e1 <= 3)%nat /\ wf e1 /\ Forall alt_wf l /\ (forall s, trail = Some s -> lay s /\ head_ne 47 s) /\ (l <> [] \/ trail <> None)
  | XEmpty => True
  end.
Lemma wf_inv e : wf e -> wf_parts e.
Proof. destruct 1; cbn [wf_parts]; auto 6. Qed.

(** [s] can start an expression of level [k]: its first character can start a Prefix; after '<' comes no '-'
    (the two would read as an arrow); below the prefix level the character is not '&' or '!' *)
Definition starts (k : nat) (s : list rune) : Prop :=
  exists c m, s = c :: m /\ pstart c = true /\ (c = 60 -> forall rest, head_ne 45 (m ++ rest)) /\
              ((k <= 1)%nat -> c <> 38 /\ c <> 33).
Lemma starts_char k c m : pstart c = true -> c <> 60 -> ((k <= 1)%nat -> c <> 38 /\ c <> 33) -> starts k (c :: m).
Proof. intros Hp N L. exists c, m. repeat split; try assumption; try (apply L; assumption). intros ->. congruence. Qed.
Lemma starts_app k k' s tl : starts k s -> ((k' <= 1)%nat -> (k <= 1)%nat) -> starts k' (s ++ tl).
Proof.
  intros (c & m & -> & Hp & H60 & L) Hk. exists c, (m ++ tl). repeat split; try assumption; try (apply L, Hk; assumption).
  intros E rest. rewrite <- app_assoc. apply H60. exact E.
Qed.

Lemma show_head e : wf e -> (show e = [] /\ lvl e = 4%nat) \/ starts (lvl e) (show e).
Proof.
  induction e as [e IH] using cx_kids_ind. intros Hw.
  assert (Hx : forall x, In x (kids e) -> wf x -> (lvl x < 4)%nat -> starts (lvl x) (show x)).
  { intros x Hin Hwx Hlx. rewrite Forall_forall in IH. destruct (IH x Hin Hwx) as [[_ L4]|S]; [lia|exact S]. }
  apply wf_inv in Hw.
  destruct e as [s|id s|a s|dbl ks s|dbl neg items s|s1 x s2|s1 x s2|op x s|op s x|op s1 a s2|l|e1 l trail|];
    cbn [show lvl kids wf_parts] in *; [right..|left; split; reflexivity].
  - apply starts_char; [reflexivity|lia|lia].
  - destruct id as [|c r]; [destruct Hw; discriminate|]. assert (Hi : is_istart c = true) by (eapply proj1, andb_true_iff, Hw).
    apply starts_char; [unfold pstart; rewrite Hi; repeat rewrite orb_true_r; reflexivity| |]; unfold is_istart in Hi; lia.
  - apply starts_char; [reflexivity|lia|lia].
  - destruct dbl; (apply starts_char; [reflexivity|cbn; lia|cbn; lia]).
  - destruct dbl; (apply starts_char; [reflexivity|lia|lia]).
  - apply starts_char; [reflexivity|lia|lia].
  - (* < e >: after '<' comes layout, the expression, or '>' *)
    destruct Hw as (Hs1 & Hwx & _).
    exists 60, (s1 ++ show x ++ 62 :: s2). split; [reflexivity|]. split; [reflexivity|]. split; [|lia].
    intros _ rest c r E. destruct s1 as [|c1 s1'].
    + rewrite <- app_assoc in E.
      destruct (Forall_inv IH Hwx) as [[Ex _]|(c0 & m & Ex & Hp & _)]; rewrite Ex in E; inv E; [lia|apply pstart_ne45 in Hp; lia].
    + inv E. destruct (lay_head _ _ Hs1) as [?|[?|[?|[?|[?|?]]]]]; lia.
  - destruct Hw as (_ & Hlx & Hwx & _). apply (starts_app (lvl x)); [apply Hx; [left; reflexivity|exact Hwx|lia]|lia].
  - destruct Hw as ([-> | ->] & _); (apply starts_char; [reflexivity|lia|lia]).
  - destruct Hw as ([-> | ->] & _); (apply starts_char; [reflexivity|lia|lia]).
  - destruct Hw as (Hlen & Hall & _). destruct l as [|x l]; [cbn in Hlen; lia|]. destruct (Forall_inv Hall) as [Hlx Hwx].
    apply (starts_app (lvl x)); [apply Hx; [left; reflexivity|exact Hwx|lia]|lia].
  - destruct Hw as (Hl1 & Hw1 & _). apply (starts_app (lvl e1)); [apply Hx; [left; reflexivity|exact Hw1|lia]|lia].
Qed.

Lemma show_start e : wf e -> (lvl e <= 3)%nat -> starts (lvl e) (show e).
Proof. intros Hw Hl. destruct (show_head e Hw) as [[_ L]|S]; [lia|exact S]. Qed.
Lemma show_start4 e : wf e -> show e = [] \/
  exists c m, show e = c :: m /\ pstart c = true /\ (c = 60 -> forall rest, head_ne 45 (m ++ rest)).
Proof. intros Hw. destruct (show_head e Hw) as [[E _]|(c & m & E & Hp & H60 & _)]; [left; exact E|right; eauto]. Qed.

Lemma pstart_stop c m : pstart c = true -> stop (c :: m).
Proof. intros H. apply pstart_ne45 in H. cbn [stop]. repeat split; try lia. all: try (intros ->; lia). Qed.
Lemma show_stop e tl : wf e -> stop tl -> stop (show e ++ tl).
Proof.
  intros Hw Hst. destruct (show_start4 e Hw) as [E|(c & m & E & Hp & _)]; rewrite E; [exact Hst|apply pstart_stop; exact Hp].
Qed.

(** the spelling conditions of a literal or class do not depend on what follows its closing delimiter *)
Lemma kfollow_tail k m q t1 t2 : q = 39 \/ q = 34 \/ q = 93 -> kfollow k (m ++ q :: t1) = kfollow k (m ++ q :: t2).
Proof.
  intros Hq. destruct k as [c|c|x ds|ds]; cbn [kfollow]; try reflexivity.
  - destruct m as [|c m]; cbn [app]; reflexivity.
  - destruct ds as [|a [|b [|c ds]]]; try reflexivity.
    + destruct m as [|c [|d m]]; cbn [app]; try reflexivity.
      * destruct Hq as [-> | [-> | ->]]; cbn [Z.eqb Pos.eqb orb]; rewrite !andb_false_r; reflexivity.
    + destruct (is_oct03 a); [|reflexivity]. destruct m as [|c m]; cbn [app]; reflexivity.
Qed.
Lemma items_ok_ext A (show : A -> list rune) (okb : A -> list rune -> bool) a1 a2 :
  (forall a m, okb a (m ++ a1) = okb a (m ++ a2)) -> forall l, items_ok A show okb l a1 = items_ok A show okb l a2.
Proof. intros H l. induction l as [|a l IH]; cbn [items_ok]; [reflexivity|]. rewrite IH, H. reflexivity. Qed.
Lemma chars_ok_tail dbl ks tl : chars_ok (quote_of dbl) ks [quote_of dbl] = true -> chars_ok (quote_of dbl) ks (quote_of dbl :: tl) = true.
Proof.
  intros H. unfold chars_ok in *. rewrite <- H. apply items_ok_ext. intros k m. unfold lit_item_ok. f_equal.
  apply kfollow_tail. destruct dbl; cbn; tauto.
Qed.
Lemma citems_ok_tail dbl items tl : citems_ok items (cclose dbl) = true -> citems_ok items (cclose dbl ++ tl) = true.
Proof.
  intros H. unfold citems_ok in *. rewrite <- H. apply items_ok_ext. intros i m.
  assert (E : exists t1 t2, cclose dbl ++ tl = 93 :: t1 /\ cclose dbl = 93 :: t2) by (destruct dbl; cbn; eauto).
  destruct E as (t1 & t2 & -> & ->).
  destruct i as [k|lo hi]; cbn [item_okb].
  - f_equal; [f_equal|]; [apply kfollow_tail; tauto|f_equal; destruct m; reflexivity].
  - f_equal; [|apply kfollow_tail; tauto]. do 2 f_equal.
    rewrite !app_assoc, !app_comm_cons. apply kfollow_tail. tauto.
Qed.

Lemma class_len_show dbl neg items s :
  (class_len dbl neg items + length s)%nat = length (copen dbl ++ (if neg then [94] else []) ++ ishows items ++ cclose dbl ++ s).
Proof. unfold class_len. rewrite !app_length. destruct neg; cbn [length]; lia. Qed.

Lemma glue_seq l : glue (XSeq l) = glue_list l.
Proof. induction l as [|x l IH]; [reflexivity|]. cbn [glue glue_list] in *. destruct l; [reflexivity|exact IH]. Qed.
Lemma glue_alt e1 l : glue (XAlt e1 l None) = match l with [] => glue e1 | _ => glue_listp l end.
Proof.
  destruct l as [|sx l]; [reflexivity|]. revert sx. induction l as [|y l IH]; intros sx; [reflexivity|].
  specialize (IH y). cbn [glue glue_listp] in *. exact IH.
Qed.
Lemma nic_app a b : a <> [] -> not_icont_head a -> not_icont_head (a ++ b).
Proof. intros Hne H c r E. destruct a as [|c0 a']; [congruence|]. cbn [app] in E. inv E. eapply H. reflexivity. Qed.

(** [Pk k] below states what the rule of level [j] needs after the expression under a guard [j <= k]; for [k < j],
    [no eq_refl] stands for such a hypothesis *)
Lemma no {P : Prop} {j k} : (k <=? j)%nat = false -> (k <= j)%nat -> P.
Proof. intros H L. apply Nat.leb_nle in H. contradiction. Qed.
Arguments no {P j k} & _ _.

Section Expr.
Variable buf : list rune.
Variable penv : nat -> nat -> bool.
Notation At := (At buf).
Notation C := (C buf penv).
Notation ko := (ko pegpeg_d pegpeg_d_ptx buf penv).

Lemma prefix_ko q s0 : At q s0 -> (forall c r, s0 = c :: r -> pstart c = false) -> ko (EName pr_Prefix) q.
Proof.
  intros Hat N. destruct s0 as [|c r].
  - apply (deads_ko _ _ _ _ 6 _ [(1, 0)] _ _ Hat); [cbn [in_window]; lia|reflexivity].
  - specialize (N c r eq_refl). unfold pstart, is_istart in N.
    apply (deads_ko _ _ _ _ 6 _ [(c, c)] _ _ Hat); [cbn [in_window]; lia|].
    (* the characters some alternative of Prefix can start with *)
    cbv -[Z.ltb orb andb]. lia.
Qed.

(** the followers of an expression: all that must not match where it ends *)
Record fol (q : nat) (rest : list rune) : Prop := {
  fol_at : At q rest;
  fol_stop : stop rest;
  fol_arrow : ko (EName pr_LeftArrow) q;
  fol_q : ko (EName pr_Question) q;
  fol_s : ko (EName pr_Star) q;
  fol_p : ko (EName pr_Plus) q }.

Lemma fol_of q rest : At q rest -> stop rest ->
  (forall c r, rest = c :: r -> c <> 8592 /\ (c = 60 -> head_ne 45 r) /\ c <> 63 /\ c <> 42 /\ c <> 43) -> fol q rest.
Proof.
  intros Hat St N. constructor; [exact Hat|exact St| | | |].
  - eapply arrow_ko; [exact Hat|]. intros c r E. destruct (N c r E) as (N1 & N2 & _). auto.
  - eapply tok_ko; [lookup|exact Hat|]. intros c r E. apply (N c r E).
  - eapply tok_ko; [lookup|exact Hat|]. intros c r E. apply (N c r E).
  - eapply tok_ko; [lookup|exact Hat|]. intros c r E. apply (N c r E).
Qed.
Lemma fol_char q c m : At q (c :: m) ->
  c <> 32 -> c <> 9 -> c <> 10 -> c <> 13 -> c <> 35 -> (c = 47 -> head_ne 47 m) ->
  c <> 8592 -> (c = 60 -> head_ne 45 m) -> c <> 63 -> c <> 42 -> c <> 43 -> fol q (c :: m).
Proof.
  intros Hat; intros. apply fol_of; [exact Hat| |intros ? ? E; inv E; auto].
  cbn [stop]. repeat split; try assumption. intros E. destruct m as [|d m']; [exact I|].
  destruct (Z.eq_dec d 47) as [->|Nd]; [exfalso; eapply (H4 E); reflexivity|].
  destruct d as [|d|d]; try exact I. do 6 (destruct d as [d|d|]; try exact I). exfalso; apply Nd; reflexivity.
Qed.
Lemma fol_eof q : At q [] -> fol q [].
Proof. intros Hat. apply fol_of; [exact Hat|exact I|intros ? ? E; discriminate E]. Qed.

Definition rule (k : nat) : nat :=
  match k with 0 => pr_Primary | 1 => pr_Suffix | 2 => pr_Prefix | 3 => pr_Sequence | _ => pr_Expression end%nat.

Record fol0 (q : nat) (rest : list rune) : Prop := {
  f0_at : At q rest;
  f0_stop : stop rest;
  f0_arrow : ko (EName pr_LeftArrow) q }.
Definition fol1 (q : nat) : Prop := ko (EName pr_Question) q /\ ko (EName pr_Star) q /\ ko (EName pr_Plus) q.
Lemma fol_split q rest : fol q rest -> fol0 q rest /\ fol1 q.
Proof. intros [A B C1 D E F]. split; [constructor; assumption|repeat split; assumption]. Qed.

Definition Pk (k : nat) (e : cx) : Prop :=
  (lvl e <= k)%nat -> wf e -> forall rest p t,
    At p (show e ++ rest) -> fol0 (p + length (show e))%nat rest -> (glue e = true -> not_icont_head rest) ->
    ((1 <= k)%nat -> fol1 (p + length (show e))%nat) ->
    ((3 <= k)%nat -> ko (EName pr_Prefix) (p + length (show e))%nat) ->
    ((4 <= k)%nat -> ko (EName pr_Slash) (p + length (show e))%nat /\ head_ne 47 rest) ->
    exists t', C (EName (rule k)) p (p + length (show e))%nat (xcalls e) t t'.

(** where a bracketed expression ends: ')' or '>' *)
Lemma closer_facts q c m : At q (c :: m) -> c = 41 \/ c = 62 ->
  fol0 q (c :: m) /\ fol1 q /\ ko (EName pr_Prefix) q /\ ko (EName pr_Slash) q /\ head_ne 47 (c :: m) /\ not_icont_head (c :: m).
Proof.
  intros Hat Hc.
  assert (Hf : fol q (c :: m)).
  { apply fol_char; try exact Hat; try (destruct Hc; subst; lia); intros E; destruct Hc; subst; discriminate. }
  destruct (fol_split _ _ Hf) as [F0 F1]. split; [exact F0|]. split; [exact F1|]. split; [|split; [|split]].
  - eapply prefix_ko; [exact Hat|]. intros c0 r E. inv E. destruct Hc; subst; reflexivity.
  - eapply tok_ko; [lookup|exact Hat|]. intros c0 r E. inv E. destruct Hc; subst; lia.
  - intros c0 r E. inv E. destruct Hc; subst; lia.
  - intros c0 r E. inv E. destruct Hc; subst; reflexivity.
Qed.

Lemma layhead_nic s rest : lay s -> s <> [] -> not_icont_head (s ++ rest).
Proof.
  intros Hl Hne c r E. destruct s as [|c0 s']; [congruence|]. cbn [app] in E. inv E.
  destruct (lay_head _ _ Hl) as [?|[?|[?|[?|[?|?]]]]]; subst; reflexivity.
Qed.

Definition IHn (n : nat) : Prop := forall e k, (size e < n)%nat -> (k <= 4)%nat -> Pk k e.

Lemma bracket_ok ro co rc cc s1 x s2 rest p t :
  nth_error pegpeg_d ro = Some (RBody (ESeq [EChar co; EName pr_Spacing])) -> ro <> pegpeg_d_ptx ->
  nth_error pegpeg_d rc = Some (RBody (ESeq [EChar cc; EName pr_Spacing])) -> rc <> pegpeg_d_ptx ->
  cc = 41 \/ cc = 62 -> Pk 4 x -> wf x -> lay s1 -> lay s2 -> stop rest ->
  At p (co :: s1 ++ show x ++ cc :: s2 ++ rest) ->
  exists t', Cs buf penv [EName ro; EName pr_Expression; EName rc] p (p + length (co :: s1 ++ show x ++ cc :: s2))%nat (xcalls x) t t'.
Proof.
  intros Ho No Hc Nc Hcc Hx Hwx Hs1 Hs2 Hstop Hat.
  pose proof (At_app _ _ [co] _ Hat) as A1. atn A1 as A2. atn A2 as A3.
  destruct (closer_facts _ _ _ A3 Hcc) as (G0 & G1 & G2 & G3 & G4 & G5).
  pose proof (tok_ok buf penv ro co s1 _ p t Ho No Hs1 (show_stop x _ Hwx (f0_stop _ _ G0)) Hat) as Hopen.
  destruct (Hx (lvl_le4 x) Hwx _ _ t A2 G0 (fun _ => G5) (fun _ => G1) (fun _ => G2) (fun _ => conj G3 G4)) as [t1 Hx1].
  pose proof (tok_ok buf penv rc cc s2 rest _ t1 Hc Nc Hs2 Hstop A3) as Hclose.
  exists t1. eapply Cs_eq; [eapply Cs_cons; [exact Hopen|eapply Cs_cons; [exact Hx1|eapply Cs_cons; [exact Hclose|apply Cs_nil]]]
                             |lenlia|cbn [app]; apply app_nil_r|reflexivity].
Qed.

(** Primary, entered at the alternative for the first character of the input at [H], which lies in [w] *)
Local Ltac primary H w :=
  eapply (C_pick _ _ pr_Primary 6 w); [lookup|notptx|exact H|cbn [in_window quote_of copen app]; lia|vm_compute; reflexivity|].

Lemma L0 e : IHn (size e) -> Pk 0 e.
Proof.
  intros IH Hl Hw rest p t Hat F0 Hg _ _ _. destruct F0 as [Hq Hstop Harrow]. zr.
  destruct e as [s|id s|a s|dbl ks s|dbl neg items s|s1 x s2|s1 x s2|op x s|op s x|op s1 a s2|l|e1 l trail|];
    cbn [lvl] in Hl; try lia; cbn [show xcalls rule] in *.
  all: zr.
  - (* . *)
    pose proof (wf_inv _ Hw) as Hs. cbn [app length] in *.
    pose proof (fun t => tok_ok buf penv pr_Dot 46 s rest p t ltac:(lookup) ltac:(notptx) Hs Hstop Hat) as Hdot.
    exists t. eapply C_eq; [primary Hat [(46, 46)]; crun|zlia|reflexivity|reflexivity].
  - (* name *)
    destruct (wf_inv _ Hw) as [Hid Hs]. rewrite <- app_assoc in Hat. rewrite app_length in *.
    replace (p + (length id + length s))%nat with (p + length id + length s)%nat in * by zlia.
    assert (Hn : not_icont_head (s ++ rest)).
    { destruct s as [|c0 s']; [apply Hg; reflexivity|apply layhead_nic; [exact Hs|discriminate]]. }
    pose proof (fun t => identifier_ok buf penv id s rest p t Hid Hs Hstop Hn Hat) as Hident.
    pose proof (At_sub _ _ id _ Hat) as Hsub.
    exists (p, (p + length id)%nat).
    eapply C_eq; [primary Hat (@nil (rune * rune)); crun|zlia|reflexivity|reflexivity].
  - (* action *)
    destruct (wf_inv _ Hw) as [Hb Hs]. cbn [app length] in *. rewrite app_length in *. cbn [length] in *.
    rewrite <- app_assoc in Hat. cbn [app] in Hat.
    pose proof (fun t => action_ok buf penv a s rest p t Hb Hs Hstop Hat) as Hact.
    at1 Hat as A1. pose proof (At_sub _ _ a _ A1) as Hsub.
    exists (S p, (S p + length a)%nat).
    eapply C_eq; [primary Hat [(123, 123)]; crun|zlia|reflexivity|reflexivity].
  - (* literal *)
    destruct (wf_inv _ Hw) as [Hk Hs]. cbn [app length] in *.
    rewrite <- app_assoc in Hat. cbn [app] in Hat.
    pose proof (chars_ok_tail dbl ks (s ++ rest) Hk) as Hk'.
    destruct (literal_ok buf penv dbl ks s rest p t Hk' Hs Hstop Hat) as [t1 Hlit].
    exists t1. eapply C_eq; [destruct dbl; primary Hat [(34, 39)]; exact Hlit|lenlia|reflexivity|reflexivity].
  - (* class *)
    destruct (wf_inv _ Hw) as (Hcw & Hci & Hra & Hs).
    rewrite <- !app_assoc in Hat.
    pose proof (citems_ok_tail dbl items (s ++ rest) Hci) as Hci'.
    destruct (class_ok buf penv dbl neg items s rest p t Hcw Hci' Hs Hstop Hat) as [t1 Hcl].
    exists t1. eapply C_eq; [destruct dbl; primary Hat [(91, 91)]; exact Hcl|rewrite <- Nat.add_assoc, class_len_show; reflexivity|reflexivity|reflexivity].
  - (* ( e ) *)
    destruct (wf_inv _ Hw) as (Hs1 & Hwx & Hs2). norm_app Hat.
    destruct (bracket_ok pr_Open 40 pr_Close 41 s1 x s2 rest p t ltac:(lookup) ltac:(notptx) ltac:(lookup) ltac:(notptx)
                (or_introl eq_refl) (IH x 4%nat (Nat.lt_succ_diag_r _) (le_n _)) Hwx Hs1 Hs2 Hstop Hat) as [t1 Hb].
    exists t1. primary Hat [(40, 40)]. apply C_seq. exact Hb.
  - (* < e > *)
    destruct (wf_inv _ Hw) as (Hs1 & Hwx & Hs2). norm_app Hat.
    destruct (bracket_ok pr_Begin 60 pr_End 62 s1 x s2 rest p t ltac:(lookup) ltac:(notptx) ltac:(lookup) ltac:(notptx)
                (or_intror eq_refl) (IH x 4%nat (Nat.lt_succ_diag_r _) (le_n _)) Hwx Hs1 Hs2 Hstop Hat) as [t1 Hb].
    exists t1. primary Hat [(60, 60)]. apply C_seq. eapply (Cs_app _ _ [_; _; _] [_]); [exact Hb|].
    eapply Cs_eq; [crun|reflexivity|reflexivity|reflexivity].
Qed.

Lemma sufop_follows op m q : is_sufop op -> At q (op :: m) -> fol0 q (op :: m) /\ is_icont op = false.
Proof.
  intros Hop Hat.
  assert (is_icont op = false /\ op <> 8592 /\ op <> 60 /\ stop (op :: m)) as (Hi & N1 & N2 & St).
  { destruct Hop as [-> | [-> | ->]]; cbn [stop]; repeat split; try lia; intros; lia. }
  split; [constructor; [exact Hat|exact St|]|exact Hi].
  eapply arrow_ko; [exact Hat|]. intros c s' E. inv E. split; [exact N1|]. intros E. contradiction.
Qed.
Lemma suffix_op op s rest p q cs t t1 : is_sufop op -> lay s -> stop rest -> At q (op :: s ++ rest) ->
  C (EName pr_Primary) p q cs t t1 -> C (EName pr_Suffix) p (q + 1 + length s)%nat (cs ++ [suf_call op]) t t1.
Proof.
  intros Hop Hs Hstop Hat Hx. pose proof (fun r H N t => tok_ok buf penv r op s rest q t H N Hs Hstop Hat) as tok.
  destruct Hop as [-> | [-> | ->]];
    [pose proof (tok pr_Question ltac:(lookup) ltac:(notptx))|pose proof (tok pr_Star ltac:(lookup) ltac:(notptx))
    |pose proof (tok pr_Plus ltac:(lookup) ltac:(notptx))];
    into_rule; cgo.
Qed.

Lemma L1 e : IHn (size e) -> Pk 1 e.
Proof.
  intros IH Hl Hw rest p t Hat F0 Hg F1 _ _. destruct (F1 (le_n _)) as (FQ & FS & FP).
  destruct (Nat.eq_dec (lvl e) 0) as [E0|N0].
  - (* a plain primary: none of ? * + follows *)
    destruct (L0 e IH (Nat.eq_le_incl _ _ E0) Hw rest p t Hat F0 Hg (no eq_refl) (no eq_refl) (no eq_refl)) as [t1 H0]. cbn [rule] in *.
    exists t1. into_rule. cgo.
  - destruct (lvl1 e ltac:(lia)) as (op & x & s & ->). clear N0. cbn [lvl] in *.
    destruct (wf_inv _ Hw) as (Hop & Hlx & Hwx & Hs).
    destruct F0 as [Hq Hstop Harrow]. cbn [show xcalls rule] in *.
    rewrite <- app_assoc in Hat. cbn [app] in Hat. atn Hat as A1. pose proof (At_app _ _ [op] _ A1) as A2. atn A2 as A3.
    destruct (sufop_follows _ _ _ Hop A1) as [G0 Hi].
    destruct (IH x 0%nat (Nat.lt_succ_diag_r _) (Nat.le_0_l _) (Nat.eq_le_incl _ _ Hlx) Hwx _ p t Hat G0
               ltac:(intros _ c r E; inv E; exact Hi) (no eq_refl) (no eq_refl) (no eq_refl)) as [t1 Hx]. cbn [rule] in Hx.
    (* at both end positions exactly [rest] remains, so they are equal; comparing sums of lengths is slower to check *)
    exists t1. eapply C_eq; [exact (suffix_op _ _ _ _ _ _ _ _ Hop Hs Hstop A1 Hx)|exact (At_inj _ _ _ _ A3 Hq)|reflexivity|reflexivity].
Qed.

Lemma prefix_op op s tl p q cs t t1 : is_preop op -> lay s -> stop tl -> At p (op :: s ++ tl) ->
  ko (EName pr_Action) (p + 1 + length s)%nat -> C (EName pr_Suffix) (p + 1 + length s)%nat q cs t t1 ->
  C (EName pr_Prefix) p q (cs ++ [pre_call op]) t t1.
Proof.
  intros Hop Hs Hst Hat Ka Hx. pose proof (fun r H N t => tok_ok buf penv r op s tl p t H N Hs Hst Hat) as tok.
  destruct Hop as [-> | ->]; [pose proof (tok pr_And ltac:(lookup) ltac:(notptx))|pose proof (tok pr_Not ltac:(lookup) ltac:(notptx))];
    into_rule; cgo.
Qed.

Lemma L2 e : IHn (size e) -> Pk 2 e.
Proof.
  intros IH Hl Hw rest p t Hat F0 Hg F1 _ _. specialize (F1 (leb_complete 1 2 eq_refl)).
  destruct (Nat.le_gt_cases (lvl e) 1) as [L1e|N1].
  - (* no prefix operator *)
    destruct (show_start e Hw ltac:(lia)) as (c & m & Es & _ & _ & Nc). destruct (Nc L1e) as [Nc1 Nc2].
    destruct (L1 e IH L1e Hw rest p t Hat F0 Hg (fun _ => F1) (no eq_refl) (no eq_refl)) as [t1 H1]. cbn [rule] in *.
    rewrite Es in Hat. cbn [app] in Hat.
    assert (Ka : ko (EName pr_And) p) by (eapply tok_ko; [lookup|exact Hat|intros ? ? E; inv E; assumption]).
    assert (Kn : ko (EName pr_Not) p) by (eapply tok_ko; [lookup|exact Hat|intros ? ? E; inv E; assumption]).
    exists t1. into_rule. cgo.
  - destruct F0 as [Hq Hstop Harrow].
    destruct (lvl2 e ltac:(lia)) as [(op & s & x & ->)|(op & s1 & a & s2 & ->)]; clear N1; cbn [lvl show xcalls rule glue] in *.
    + (* &e !e *)
      destruct (wf_inv _ Hw) as (Hop & Hs & Hlx & Hwx & Hh).
      destruct (show_start x Hwx ltac:(lia)) as (c & m & Es & _).
      norm_app Hat. pose proof (At_app _ _ [op] _ Hat) as A1. atn A1 as A2. atn A2 as A3.
      rewrite (At_inj _ _ _ _ Hq A3) in *.
      assert (Kact : ko (EName pr_Action) (p + 1 + length s)%nat).
      { eapply action_ko; [exact A2|]. rewrite Es. intros ? ? E. inv E. eapply Hh. exact Es. }
      destruct (IH x 1%nat (Nat.lt_succ_diag_r _) (leb_complete 1 4 eq_refl) Hlx Hwx rest _ t A2 (Build_fol0 _ _ A3 Hstop Harrow) Hg
                  (fun _ => F1) (no eq_refl) (no eq_refl)) as [t1 Hx].
      exists t1. exact (prefix_op _ _ _ _ _ _ _ _ Hop Hs (show_stop x rest Hwx Hstop) Hat Kact Hx).
    + (* &{a} !{a} *)
      destruct (wf_inv _ Hw) as (Hop & Hs1 & Hb & Hs2).
      norm_app Hat. pose proof (At_app _ _ [op] _ Hat) as A1. atn A1 as A2.
      assert (Hst : stop (123 :: a ++ 125 :: s2 ++ rest)) by (cbn [stop]; repeat split; try lia; intros; lia).
      pose proof (fun r H N t => tok_ok buf penv r op s1 _ p t H N Hs1 Hst Hat) as tok.
      pose proof (fun t => action_ok buf penv a s2 rest _ t Hb Hs2 Hstop A2) as Hact.
      at1 A2 as A4. pose proof (At_sub _ _ a _ A4) as Hsub.
      eexists. destruct Hop as [-> | ->]; [pose proof (tok pr_And ltac:(lookup) ltac:(notptx))|pose proof (tok pr_Not ltac:(lookup) ltac:(notptx))];
        into_rule; cgo.
Qed.

Lemma start_fol q c m : At q (c :: m) -> pstart c = true -> (c = 60 -> head_ne 45 m) -> fol q (c :: m).
Proof.
  intros Hat Hp H60. destruct (pstart_ne45 _ Hp) as (_ & N47 & _ & _ & ? & ? & ? & ? & ? & ? & ? & ? & ?).
  apply fol_char; try assumption. intros E. contradiction.
Qed.

Lemma slash_follow q s' txt : At q (47 :: s' ++ txt) -> head_ne 47 s' -> (s' = [] -> head_ne 47 txt) ->
  fol0 q (47 :: s' ++ txt) /\ fol1 q /\ ko (EName pr_Prefix) q /\ not_icont_head (47 :: s' ++ txt).
Proof.
  intros Hat H1 H2.
  assert (Hh : head_ne 47 (s' ++ txt)).
  { destruct s' as [|c s'']; [apply H2; reflexivity|]. intros c0 r E. cbn [app] in E. inv E. eapply H1. reflexivity. }
  assert (Hf : fol q (47 :: s' ++ txt)).
  { apply fol_char; try exact Hat; try lia; try (intros; lia). intros _. exact Hh. }
  destruct (fol_split _ _ Hf) as [G0 G1]. split; [exact G0|]. split; [exact G1|]. split.
  - eapply prefix_ko; [exact Hat|]. intros c r E. inv E. reflexivity.
  - intros c r E. inv E. reflexivity.
Qed.

(** Sequence and Expression read a first item and then a loop of items.  What follows the whole list, [rest] at [q],
    is the same for every item and every round. *)
Section Items.
Variables (q : nat) (rest : list rune).
Hypothesis F0 : fol0 q rest.
Hypothesis F1 : fol1 q.
Hypothesis Kp : ko (EName pr_Prefix) q.

(** an item of a sequence is followed by the next item, or by what follows the sequence *)
Lemma seq_item y l p t :
  Forall (fun z => (lvl z <= 2)%nat /\ wf z) (y :: l) -> adj (y :: l) -> Pk 2 y ->
  At p (show y ++ flat_map show l ++ rest) -> (glue_list (y :: l) = true -> not_icont_head rest) ->
  exists t', C (EName pr_Prefix) p (p + length (show y))%nat (xcalls y) t t'.
Proof.
  intros Hall Hadj Hy Hat Hg. inversion Hall as [|? ? [Hly Hwy] Hl]; subst. atn Hat as A1.
  assert (H : fol0 (p + length (show y))%nat (flat_map show l ++ rest) /\ fol1 (p + length (show y))%nat /\
              (glue y = true -> not_icont_head (flat_map show l ++ rest))).
  { destruct l as [|z l'].
    - cbn [flat_map app glue_list] in *. rewrite (At_inj _ _ _ _ A1 (f0_at _ _ F0)). auto.
    - inversion Hl as [|? ? (Hlz & Hwz) _]; subst.
      destruct (show_start z Hwz ltac:(lia)) as (c & m & Ez & Hp & H60 & _).
      cbn [flat_map] in *. rewrite Ez in *. cbn [app] in *. rewrite <- app_assoc in A1.
      pose proof (start_fol _ _ _ A1 Hp (fun E => H60 E _)) as Hf. rewrite app_assoc in Hf. destruct (fol_split _ _ Hf) as [G0 G1].
      split; [exact G0|]. split; [exact G1|]. intros Gy c0 r E. inv E. exact (proj1 Hadj Gy _ _ Ez). }
  destruct H as (G0 & G1 & Gg). exact (Hy Hly Hwy _ p t Hat G0 Gg (fun _ => G1) (no eq_refl) (no eq_refl)).
Qed.

Lemma seq_star ea : (forall p t, C ea p p [(CAddSequence, [])] t t) ->
  forall l y, Forall (Pk 2) l -> Forall (fun z => (lvl z <= 2)%nat /\ wf z) l -> adj (y :: l) ->
  forall p t, At p (flat_map show l ++ rest) -> (glue_list (y :: l) = true -> not_icont_head rest) ->
    exists t', C (EStar (ESeq [EName pr_Prefix; ea])) p q (flat_map (fun y => xcalls y ++ [(CAddSequence, [])]) l) t t'.
Proof.
  intros Hea l. induction l as [|z l IHl]; intros y Hpk Hall Hadj p t Hat Hg; cbn [flat_map app] in *.
  - rewrite (At_inj _ _ _ _ Hat (f0_at _ _ F0)). exists t. apply C_star_nil, ko_seq, kos_head. exact Kp.
  - rewrite <- app_assoc in Hat. destruct (seq_item z l p t Hall (proj2 Hadj) (Forall_inv Hpk) Hat Hg) as [t1 Hz].
    atn Hat as A1.
    destruct (IHl z (Forall_inv_tail Hpk) (Forall_inv_tail Hall) (proj2 Hadj) _ t1 A1 Hg) as [t2 Hrec].
    exists t2.
    eapply C_eq; [eapply C_star_cons; [apply C_seq; eapply Cs_cons; [exact Hz|eapply Cs_cons; [apply Hea|apply Cs_nil]]|exact Hrec]
                 |reflexivity|cbn [app]; rewrite ?app_nil_r, <- ?app_assoc; reflexivity|reflexivity].
Qed.

(** an alternative is followed by the slash of the next, or by what follows them all *)
Lemma alt_item x l p t : Pk 3 x -> (lvl x <= 3)%nat -> wf x -> Forall alt_wf l ->
  At p (show x ++ flat_map showalt l ++ rest) -> (l = [] -> glue x = true -> not_icont_head rest) ->
  exists t', C (EName pr_Sequence) p (p + length (show x))%nat (xcalls x) t t'.
Proof.
  intros Hx Hlx Hwx Hall Hat Hg. atn Hat as A1.
  assert (H : fol0 (p + length (show x))%nat (flat_map showalt l ++ rest) /\ fol1 (p + length (show x))%nat /\
              ko (EName pr_Prefix) (p + length (show x))%nat /\ (glue x = true -> not_icont_head (flat_map showalt l ++ rest))).
  { destruct l as [|[s y] l].
    - cbn [flat_map app] in *. rewrite (At_inj _ _ _ _ A1 (f0_at _ _ F0)). auto.
    - inversion Hall as [|? ? (_ & Hh & Hly & Hwy) _]; subst. cbn [fst snd] in *.
      destruct (show_start y Hwy Hly) as (c & m & Ey & Hp & _).
      cbn [flat_map] in *. change (showalt (s, y)) with (47 :: s ++ show y) in *. norm_app A1. cbn [app]. rewrite <- !app_assoc.
      destruct (slash_follow _ s _ A1 Hh) as (G0 & G1 & G2 & G3); [|auto].
      intros _. rewrite Ey. intros c0 r E. inv E. apply pstart_ne45 in Hp. lia. }
  destruct H as (G0 & G1 & G2 & Gg). exact (Hx Hlx Hwx _ p t Hat G0 Gg (fun _ => G1) (fun _ => G2) (no eq_refl)).
Qed.

Lemma alt_star ea : (forall p t, C ea p p [(CAddAlternate, [])] t t) ->
  forall l, Forall (fun sx : list rune * cx => Pk 3 (snd sx)) l -> Forall alt_wf l ->
  forall p t, At p (flat_map showalt l ++ rest) ->
    (glue_listp l = true -> not_icont_head rest) -> ko (ESeq [EName pr_Slash; EName pr_Sequence; ea]) q ->
    exists t', C (EStar (ESeq [EName pr_Slash; EName pr_Sequence; ea])) p q
                 (flat_map (fun sx : list rune * cx => xcalls (snd sx) ++ [(CAddAlternate, [])]) l) t t'.
Proof.
  intros Hea l. induction l as [|[s x] l IHl]; intros Hpk Hall p t Hat Hg Kstop; cbn [flat_map app] in *.
  - rewrite (At_inj _ _ _ _ Hat (f0_at _ _ F0)). exists t. apply C_star_nil. exact Kstop.
  - inversion Hall as [|? ? (Hs & Hh & Hlx & Hwx) Hall']; subst. cbn [fst snd] in *.
    unfold showalt at 1 in Hat. cbn [fst snd] in Hat. norm_app Hat.
    destruct (show_start x Hwx Hlx) as (c & m & Ex & Hp & _).
    assert (Hst : stop (show x ++ flat_map showalt l ++ rest)) by (rewrite Ex; apply pstart_stop; exact Hp).
    pose proof (tok_ok buf penv pr_Slash 47 s _ p t ltac:(lookup) ltac:(notptx) Hs Hst Hat) as Hslash.
    pose proof (At_app _ _ [47] _ Hat) as A1. atn A1 as A2. atn A2 as A3.
    destruct (alt_item x l _ t (Forall_inv Hpk) Hlx Hwx Hall' A2 ltac:(intros ->; exact Hg)) as [t1 Hx].
    destruct (IHl (Forall_inv_tail Hpk) Hall' _ t1 A3 ltac:(intros E; apply Hg; destruct l; [discriminate|exact E]) Kstop)
      as [t2 Hrec].
    exists t2.
    eapply C_eq; [eapply C_star_cons; [apply C_seq; eapply Cs_cons; [exact Hslash|eapply Cs_cons; [exact Hx|eapply Cs_cons; [apply Hea|apply Cs_nil]]]|exact Hrec]
                 |reflexivity|cbn [app]; rewrite ?app_nil_r, <- ?app_assoc; reflexivity|reflexivity].
Qed.

Lemma alts_ok ea e1 l p t : (forall p t, C ea p p [(CAddAlternate, [])] t t) ->
  Pk 3 e1 -> (lvl e1 <= 3)%nat -> wf e1 -> Forall (fun sx : list rune * cx => Pk 3 (snd sx)) l -> Forall alt_wf l ->
  At p (show e1 ++ flat_map showalt l ++ rest) ->
  ((match l with [] => glue e1 | _ => glue_listp l end) = true -> not_icont_head rest) ->
  ko (ESeq [EName pr_Slash; EName pr_Sequence; ea]) q ->
  exists t1 t2, C (EName pr_Sequence) p (p + length (show e1))%nat (xcalls e1) t t1 /\
    C (EStar (ESeq [EName pr_Slash; EName pr_Sequence; ea])) (p + length (show e1))%nat q
      (flat_map (fun sx : list rune * cx => xcalls (snd sx) ++ [(CAddAlternate, [])]) l) t1 t2.
Proof.
  intros Hea H1 Hl1 Hw1 Hpk Hall Hat Hg Kstop.
  destruct (alt_item e1 l p t H1 Hl1 Hw1 Hall Hat ltac:(intros ->; exact Hg)) as [t1 Hx]. exists t1.
  destruct (alt_star ea Hea l Hpk Hall _ t1 (At_app _ _ _ _ Hat) ltac:(intros E; apply Hg; destruct l; [discriminate|exact E]) Kstop) as [t2 Hst].
  exists t2. split; [exact Hx|exact Hst].
Qed.

End Items.

Lemma L3 e : IHn (size e) -> Pk 3 e.
Proof.
  intros IH Hl Hw rest p t Hat F0 Hg F1 Kp _. specialize (F1 (leb_complete 1 3 eq_refl)). specialize (Kp (le_n _)).
  destruct (Nat.le_gt_cases (lvl e) 2) as [L2e|N2].
  - destruct (L2 e IH L2e Hw rest p t Hat F0 Hg (fun _ => F1) (no eq_refl) (no eq_refl)) as [t1 H2]. cbn [rule] in *.
    exists t1. into_rule. cgo.
  - destruct (lvl3 e ltac:(lia)) as [l ->]. clear N2. cbn [lvl] in *.
    destruct (wf_inv _ Hw) as (Hlen & Hall & Hadj).
    destruct l as [|x l]; [cbn in Hlen; lia|]. rewrite glue_seq in Hg. cbn [show xcalls rule flat_map] in *.
    assert (Hpk : Forall (Pk 2) (x :: l)).
    { apply Forall_forall. intros y Hy. apply IH; [apply size_in_seq; exact Hy|exact (leb_complete 2 4 eq_refl)]. }
    rewrite <- app_assoc in Hat. destruct (seq_item _ rest F0 F1 x l p t Hall Hadj (Forall_inv Hpk) Hat Hg) as [t1 Hx]. atn Hat as A1.
    let b := eval vm_compute in (nth_error pegpeg_d pr_Sequence) in
    lazymatch b with
    | Some (RBody (ESeq [_; EStar (ESeq [_; ?a])])) =>
        destruct (seq_star _ rest F0 F1 Kp a ltac:(intros; cgo) l x (Forall_inv_tail Hpk) (Forall_inv_tail Hall) Hadj _ t1 A1 Hg) as [t2 Hst]
    end.
    exists t2. into_rule. cgo.
Qed.

Lemma seq_ko q : ko (EName pr_Prefix) q -> ko (EName pr_Sequence) q.
Proof. intros K. korun. Qed.

Lemma L4 e : IHn (size e) -> Pk 4 e.
Proof.
  intros IH Hl Hw rest p t Hat F0 Hg F1 Kp Ks. specialize (F1 (leb_complete 1 4 eq_refl)). specialize (Kp (leb_complete 3 4 eq_refl)).
  destruct (Ks (le_n _)) as [Ksl Hr47]. clear Ks.
  destruct (Nat.le_gt_cases (lvl e) 3) as [L3e|N3].
  - destruct (L3 e IH L3e Hw rest p t Hat F0 Hg (fun _ => F1) (fun _ => Kp) (no eq_refl)) as [t1 H3]. cbn [rule] in *.
    exists t1. into_rule. cgo.
  - destruct (lvl4 e ltac:(lia)) as [(e1 & l & trail & ->)| ->]; clear N3; cbn [lvl] in *.
    + (* an alternation *)
      destruct (wf_inv _ Hw) as (Hl1 & Hw1 & Hall & Htr & Hne). cbn [show xcalls rule] in *.
      change (fun sx : list rune * cx => 47 :: fst sx ++ show (snd sx)) with showalt in *.
      assert (Hpk : Forall (fun sx : list rune * cx => Pk 3 (snd sx)) l).
      { apply Forall_forall. intros sx Hin. apply IH; [eapply size_in_alt; exact Hin|exact (leb_complete 3 4 eq_refl)]. }
      pose proof (IH e1 3%nat (le_n_S _ _ (Nat.le_add_r _ _)) (leb_complete 3 4 eq_refl)) as H1.
      rewrite <- !app_assoc in Hat. atn Hat as A1. atn A1 as A2. destruct F0 as [Hq Hstop Harrow].
      let b := eval vm_compute in (nth_error pegpeg_d pr_Expression) in
      lazymatch b with
      | Some (RBody (EAlt [ESeq [_; EStar (ESeq [_; _; ?a]); _]; _])) => pose (ea := a)
      end.
      assert (Hea : forall p t, C ea p p [(CAddAlternate, [])] t t) by (intros; subst ea; cgo).
      destruct trail as [s|].
      * (* a trailing slash: nothing after it *)
        destruct (Htr s eq_refl) as [Hs Hh]. cbn [app] in *.
        pose proof (fun t => tok_ok buf penv pr_Slash 47 s rest _ t ltac:(lookup) ltac:(notptx) Hs Hstop A2) as Hsl.
        pose proof (At_app _ _ [47] _ A2) as A3. atn A3 as A4. rewrite (At_inj _ _ _ _ Hq A4) in *.
        destruct (slash_follow _ s rest A2 Hh (fun _ => Hr47)) as (G0 & G1 & G2 & G3).
        destruct (alts_ok _ _ G0 G1 G2 ea e1 l p t Hea H1 Hl1 Hw1 Hpk Hall Hat (fun _ => G3)) as (t1 & t2 & Hc1 & Hc2).
        { apply ko_seq. eapply kos_tail_C; [apply (Hsl t)|]. apply kos_head, seq_ko. exact Kp. }
        exists t2. subst ea. into_rule. cgo.
      * cbn [app] in *. rewrite (At_inj _ _ _ _ Hq A2) in *.
        destruct (alts_ok _ _ (Build_fol0 _ _ A2 Hstop Harrow) F1 Kp ea e1 l p t Hea H1 Hl1 Hw1 Hpk Hall Hat) as (t1 & t2 & Hc1 & Hc2).
        { rewrite <- glue_alt. exact Hg. }
        { apply ko_seq, kos_head. exact Ksl. }
        exists t2. subst ea. into_rule. cgo.
    + (* nothing *)
      cbn [show xcalls rule app length] in *. rewrite Nat.add_0_r in *. pose proof (seq_ko _ Kp) as Ksq.
      exists t. into_rule. cgo.
Qed.

(** every well-formed expression, printed, is read back by the rule of its level as the calls it stands for *)
Theorem levels_ok n : IHn n.
Proof.
  induction n as [|n IHnn]; intros e k Hs Hk; [lia|].
  assert (IHe : IHn (size e)) by (intros e0 k0 Hs0 Hk0; apply IHnn; lia).
  destruct k as [|[|[|[|[|k]]]]]; [apply L0|apply L1|apply L2|apply L3|apply L4|lia]; exact IHe.
Qed.

Theorem expression_ok e : wf e -> forall rest p t,
  At p (show e ++ rest) -> fol (p + length (show e))%nat rest -> (glue e = true -> not_icont_head rest) ->
  ko (EName pr_Prefix) (p + length (show e))%nat -> ko (EName pr_Slash) (p + length (show e))%nat -> head_ne 47 rest ->
  exists t', C (EName pr_Expression) p (p + length (show e))%nat (xcalls e) t t'.
Proof.
  intros Hw rest p t Hat Hf Hg Kp Ks H47. destruct (fol_split _ _ Hf) as [F0 F1].
  exact (levels_ok (S (size e)) e 4%nat (le_n _) (le_n _) (lvl_le4 e) Hw rest p t Hat F0 Hg (fun _ => F1) (fun _ => Kp) (fun _ => conj Ks H47)).
Qed.

End Expr.
