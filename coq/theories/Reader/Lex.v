(** Lexical layer of peg.peg: spacing and comments, punctuation tokens, identifiers, actions. *)
From PegV Require Import Base.Tac Base.ListX Spec.Syntax Spec.Peg Proofs.PegRel Model.Calls Generated.PegPeg Reader.Base.
Local Open Scope Z_scope.

Section Lex.
Variable buf : list rune.
Variable penv : nat -> nat -> bool.
Notation At := (At buf).
Notation C := (C buf penv).
Notation ko := (ko pegpeg_d pegpeg_d_ptx buf penv).

Lemma eol_rn p s t : At p (13 :: 10 :: s) -> C (EName pr_EndOfLine) p (S (S p)) [] t t.
Proof. intros H. cgo. Qed.
Lemma eol_n p s t : At p (10 :: s) -> C (EName pr_EndOfLine) p (S p) [] t t.
Proof. intros H. cgo. Qed.
Lemma eol_r p s t : At p (13 :: s) -> (forall s', s <> 10 :: s') -> C (EName pr_EndOfLine) p (S p) [] t t.
Proof.
  intros H N. destruct s as [|c s]; [cgo|].
  assert (c <> 10) by (intros ->; eapply N; reflexivity). cgo.
Qed.
Lemma eol_ko p s : At p s -> (forall c s', s = c :: s' -> c <> 10 /\ c <> 13) -> ko (EName pr_EndOfLine) p.
Proof.
  intros H N. destruct s as [|c s]; [korun|].
  destruct (N c s eq_refl). korun.
Qed.

Definition lb_len (e : rune) (s : list rune) : nat :=
  match s with c :: _ => if ((e =? 13) && (c =? 10))%bool then 2%nat else 1%nat | [] => 1%nat end.
Lemma eol_lb p e s t : At p (e :: s) -> is_lb e -> C (EName pr_EndOfLine) p (p + lb_len e s)%nat [] t t.
Proof.
  intros H [-> | ->].
  - replace (p + lb_len 10%Z s)%nat with (S p) by (unfold lb_len; destruct s; cbn; lia). apply (eol_n _ _ _ H).
  - destruct s as [|c s].
    + replace (p + lb_len 13%Z [])%nat with (S p) by (cbn; lia). eapply eol_r; [exact H|discriminate].
    + unfold lb_len. cbn [Z.eqb Pos.eqb andb]. destruct (Z.eqb_spec c 10) as [->|N].
      * replace (p + 2)%nat with (S (S p)) by lia. apply (eol_rn _ _ _ H).
      * replace (p + 1)%nat with (S p) by lia. eapply eol_r; [exact H|congruence].
Qed.

Notation cbody := (EStar (ESeq [ENot (EName pr_EndOfLine); EDot])).
Lemma comment_body body : forall p e s t, nolb body -> is_lb e -> At p (body ++ e :: s) ->
  C cbody p (p + length body)%nat [] t t.
Proof.
  induction body as [|c body IH]; intros p e s t Hb He H; cbn [app length] in *.
  - pose proof (fun t => eol_lb p e s t H He) as Heol.
    eapply C_eq; [apply C_star_nil; korun|lia|reflexivity|reflexivity].
  - inv Hb. assert (Hk : ko (EName pr_EndOfLine) p) by (eapply eol_ko; [exact H|intros ? ? E; inv E; assumption]).
    at1 H as A1. specialize (IH (S p) e s t H3 He A1).
    eapply C_eq; [eapply C_star_cons; [crun|exact IH]|lia|reflexivity|reflexivity].
Qed.

Lemma comment_ok o p body e s t : o = [35] \/ o = [47; 47] -> nolb body -> is_lb e -> At p (o ++ body ++ e :: s) ->
  C (EName pr_Comment) p (p + length o + length body + lb_len e s)%nat [] t t.
Proof.
  intros Ho Hb He H. atl H as A1.
  pose proof (comment_body body _ e s t Hb He A1) as Hbody.
  atn A1 as A2. pose proof (eol_lb _ _ _ t A2 He) as Heol.
  destruct Ho as [-> | ->]; cbn [app length Nat.add] in *; cgo.
Qed.

(** nothing that SpaceComment or HeaderSpaceComment can begin with stands where layout stops *)
Lemma stop_kos p rest : At p rest -> stop rest ->
  ko (EName pr_Space) p /\ ko (EChar 35) p /\ ko (ESeq [EChar 47; EChar 47]) p.
Proof.
  intros H St. destruct rest as [|c r]; [repeat split; korun|].
  destruct St as (N1 & N2 & N3 & N4 & N5 & N6).
  destruct (Z.eq_dec c 47) as [->|N7]; [|repeat split; korun].
  specialize (N6 eq_refl). destruct r as [|c2 r]; [repeat split; korun|].
  assert (c2 <> 47) by (intros ->; exact N6). repeat split; korun.
Qed.

Lemma lb_split e s0 rest : is_lb e -> lay s0 -> stop rest ->
  exists m s', e :: s0 = m ++ s' /\ lay s' /\ length m = lb_len e (s0 ++ rest) /\ (0 < length m)%nat.
Proof.
  intros He Hl St. destruct s0 as [|c s1].
  - exists [e], []. repeat split; [constructor| |cbn; lia]. cbn [app]. unfold lb_len. destruct rest as [|c r]; [reflexivity|].
    destruct St as (_ & _ & N3 & _). destruct (Z.eqb_spec c 10); [contradiction|]. rewrite andb_false_r. reflexivity.
  - cbn [app]. unfold lb_len. destruct (Z.eqb_spec e 13) as [->|Ne]; [destruct (Z.eqb_spec c 10) as [->|Nc]|]; cbn [andb].
    + exists [13; 10], s1. repeat split; [inv Hl; assumption|cbn; lia].
    + exists [13], (c :: s1). repeat split; [exact Hl|cbn; lia].
    + exists [e], (c :: s1). repeat split; [exact Hl|cbn; lia].
Qed.

Lemma sc_step s : lay s -> s <> [] -> forall rest, stop rest ->
  exists m s', s = m ++ s' /\ (0 < length m)%nat /\ lay s' /\
    forall p t, At p (s ++ rest) -> C (EName pr_SpaceComment) p (p + length m)%nat [] t t.
Proof.
  intros Hl Hne rest St. inv Hl; [congruence| | |].
  1: { (* a blank or a line break *)
    destruct H as [-> | [-> | Hlb]].
    - exists [32], s0. repeat split; [cbn; lia|assumption|]. intros p t H. cbn [app length] in H. cgo.
    - exists [9], s0. repeat split; [cbn; lia|assumption|]. intros p t H. cbn [app length] in H. cgo.
    - destruct (lb_split c s0 rest Hlb H0 St) as (m & s' & E & L' & Lm & Lp).
      exists m, s'. repeat split; [exact E|exact Lp|exact L'|]. intros p t H. cbn [app] in H.
      pose proof (fun t => eol_lb _ _ _ t H Hlb) as Heol. rewrite Lm.
      assert (c <> 32 /\ c <> 9) as [? ?] by (destruct Hlb; subst; lia).
      cgo. }
  (* a comment, from its opener [o] to the line break [m] that ends it *)
  1: pose (o := [35]). 2: pose (o := [47; 47]).
  all: destruct (lb_split e s0 rest H0 H1 St) as (m & s' & E & L' & Lm & Lp).
  all: exists (o ++ body ++ m), s'; repeat split; [subst o; cbn [app]; rewrite <- app_assoc, <- E; reflexivity|subst o; cbn; lia|exact L'|].
  all: intros p t Hat; cbn [app] in Hat; rewrite <- app_assoc in Hat; cbn [app] in Hat.
  all: pose proof (comment_ok o _ _ _ _ t ltac:(subst o; auto) H H0 Hat) as Hc; subst o; rewrite !app_length, Lm.
  all: cgo.
Qed.

Lemma spacing_star s rest p t : lay s -> stop rest -> At p (s ++ rest) ->
  C (EStar (EName pr_SpaceComment)) p (p + length s)%nat [] t t.
Proof.
  intros Hl St. apply (C_star_pieces buf penv _ lay rest); [| |exact Hl].
  - intros s0 L0 N0. exact (sc_step s0 L0 N0 rest St).
  - intros q Hq. destruct (stop_kos q rest Hq St) as (K1 & K2 & K3). korun.
Qed.

Theorem spacing_ok s rest p t : lay s -> stop rest -> At p (s ++ rest) -> C (EName pr_Spacing) p (p + length s)%nat [] t t.
Proof. intros Hl St Hat. into_rule. exact (spacing_star s rest p t Hl St Hat). Qed.

Theorem must_spacing_ok s rest p t : lay s -> s <> [] -> stop rest -> At p (s ++ rest) ->
  C (EName pr_MustSpacing) p (p + length s)%nat [] t t.
Proof.
  intros Hl Hne St Hat. into_rule.
  destruct (sc_step s Hl Hne rest St) as (m & s' & E & Lp & L' & Hstep).
  assert (Hat' : At (p + length m)%nat (s' ++ rest)) by (apply At_app; rewrite app_assoc, <- E; exact Hat).
  eapply C_eq; [eapply C_plus; [exact (Hstep p t Hat)|exact (spacing_star s' rest _ t L' St Hat')]|rewrite E, app_length; lia|reflexivity|reflexivity].
Qed.

Lemma tok_ok r c s rest p t :
  nth_error pegpeg_d r = Some (RBody (ESeq [EChar c; EName pr_Spacing])) -> r <> pegpeg_d_ptx ->
  lay s -> stop rest -> At p (c :: s ++ rest) -> C (EName r) p (p + 1 + length s)%nat [] t t.
Proof.
  intros Hr Hp Hl St Hat. at1 Hat as A1. pose proof (spacing_ok _ _ _ t Hl St A1) as Hsp.
  eapply C_name; [exact Hr|exact Hp|]. cgo.
Qed.
Lemma tok_ko r c p s0 :
  nth_error pegpeg_d r = Some (RBody (ESeq [EChar c; EName pr_Spacing])) ->
  At p s0 -> (forall c' s', s0 = c' :: s' -> c' <> c) -> ko (EName r) p.
Proof.
  intros Hr Hat N. eapply ko_name; [exact Hr|]. apply ko_seq. apply kos_head. eapply ko_char_at; eassumption.
Qed.

(** LeftArrow: "<-" or U+2190 *)
Lemma arrow_ascii s rest p t : lay s -> stop rest -> At p (60 :: 45 :: s ++ rest) ->
  C (EName pr_LeftArrow) p (p + 2 + length s)%nat [] t t.
Proof.
  intros Hl St Hat. at1 Hat as A1. at1 A1 as A2. pose proof (spacing_ok _ _ _ t Hl St A2) as Hsp.
  into_rule. cgo.
Qed.
Lemma arrow_uni s rest p t : lay s -> stop rest -> At p (8592 :: s ++ rest) ->
  C (EName pr_LeftArrow) p (p + 1 + length s)%nat [] t t.
Proof.
  intros Hl St Hat. at1 Hat as A1. pose proof (spacing_ok _ _ _ t Hl St A1) as Hsp.
  into_rule. cgo.
Qed.
Lemma arrow_ko p s0 : At p s0 ->
  (forall c s', s0 = c :: s' -> c <> 8592 /\ (c = 60 -> forall c2 s2, s' = c2 :: s2 -> c2 <> 45)) -> ko (EName pr_LeftArrow) p.
Proof.
  intros Hat N. destruct s0 as [|c s']; [korun|]. destruct (N c s' eq_refl) as [N1 N2].
  destruct (Z.eq_dec c 60) as [->|N3].
  - destruct s' as [|c2 s2]; [korun|]. pose proof (N2 eq_refl c2 s2 eq_refl). korun.
  - korun.
Qed.

Lemma istart_ok p c s t : At p (c :: s) -> is_istart c = true -> C (EName pr_IdentStart) p (S p) [] t t.
Proof.
  intros Hat Hc. unfold is_istart in Hc. into_rule.
  destruct ((97 <=? c) && (c <=? 122))%bool eqn:E1; [cgo|].
  destruct ((65 <=? c) && (c <=? 90))%bool eqn:E2; [cgo|].
  cbn [orb] in Hc. assert (c = 95) by lia. subst c. cgo.
Qed.
Lemma istart_ko p s0 : At p s0 -> (forall c s', s0 = c :: s' -> is_istart c = false) -> ko (EName pr_IdentStart) p.
Proof.
  intros Hat N. destruct s0 as [|c s']; [korun|]. pose proof (N c s' eq_refl) as Hc. unfold is_istart in Hc. korun.
Qed.
Lemma icont_ok p c s t : At p (c :: s) -> is_icont c = true -> C (EName pr_IdentCont) p (S p) [] t t.
Proof.
  intros Hat Hc. unfold is_icont in Hc. destruct (is_istart c) eqn:E.
  - pose proof (fun t => istart_ok p c s t Hat E). cgo.
  - cbn [orb] in Hc. pose proof (istart_ko p _ Hat ltac:(intros ? ? X; inv X; exact E)). cgo.
Qed.
Lemma icont_ko p s0 : At p s0 -> not_icont_head s0 -> ko (EName pr_IdentCont) p.
Proof.
  intros Hat N. assert (Hs : ko (EName pr_IdentStart) p).
  { eapply istart_ko; [exact Hat|]. intros c s' ->. specialize (N c s' eq_refl). unfold is_icont in N. destruct (is_istart c); [discriminate|reflexivity]. }
  destruct s0 as [|c s']; [korun|]. specialize (N c s' eq_refl). unfold is_icont in N.
  destruct (is_istart c); [discriminate|]. cbn [orb] in N. korun.
Qed.
Theorem identifier_ok id s rest p t : ident_ok id = true -> lay s -> stop rest -> not_icont_head (s ++ rest) ->
  At p (id ++ s ++ rest) ->
  C (EName pr_Identifier) p (p + length id + length s)%nat [] t (p, (p + length id)%nat).
Proof.
  intros Hid Hl St Hn Hat. destruct id as [|c r]; [discriminate|]. cbn [ident_ok] in Hid.
  apply andb_true_iff in Hid. destruct Hid as [Hc Hr]. cbn [app length] in *. at1 Hat as A1.
  pose proof (fun t => istart_ok _ _ _ t Hat Hc) as K1.
  pose proof (fun t => C_star_run buf penv _ _ icont_ok icont_ko r _ _ t Hr Hn A1) as K2.
  atn A1 as A2.
  pose proof (fun t => spacing_ok _ _ _ t Hl St A2) as K3.
  into_rule. eapply C_eq; [crun|lia|reflexivity|f_equal; lia].
Qed.
Lemma identifier_ko p s0 : At p s0 -> (forall c s', s0 = c :: s' -> is_istart c = false) -> ko (EName pr_Identifier) p.
Proof. intros Hat N. pose proof (istart_ko _ _ Hat N). korun. Qed.

Lemma abody_star a : bal a -> forall p rest t, At p (a ++ 125 :: rest) ->
  C (EStar (EName pr_ActionBody)) p (p + length a)%nat [] t t.
Proof.
  induction 1 as [|c s N1 N2 Hb IH|a s Ha IHa Hs IHs]; intros p rest t Hat; cbn [app length] in *.
  - eapply C_eq; [apply C_star_nil; korun|lia|reflexivity|reflexivity].
  - at1 Hat as A1. pose proof (IH _ _ t A1) as Hrec.
    eapply C_eq; [eapply C_star_cons; [crun|exact Hrec]|lia|reflexivity|reflexivity].
  - at1 Hat as A1. rewrite <- app_assoc in A1. cbn [app] in A1.
    pose proof (fun t => IHa _ _ t A1) as K1. atn A1 as A2. at1 A2 as A3.
    pose proof (IHs _ _ t A3) as K3.
    eapply C_eq; [eapply C_star_cons; [crun|exact K3]|rewrite app_length; cbn [length]; lia|reflexivity|reflexivity].
Qed.

Theorem action_ok a s rest p t : bal a -> lay s -> stop rest -> At p (123 :: a ++ 125 :: s ++ rest) ->
  C (EName pr_Action) p (p + 2 + length a + length s)%nat [] t (S p, (S p + length a)%nat).
Proof.
  intros Hb Hl St Hat. at1 Hat as A1.
  pose proof (fun t => abody_star a Hb _ _ t A1) as K1. atn A1 as A2. at1 A2 as A3.
  pose proof (fun t => spacing_ok _ _ _ t Hl St A3) as K3.
  into_rule. cgo.
Qed.
Lemma action_ko p s0 : At p s0 -> (forall c s', s0 = c :: s' -> c <> 123) -> ko (EName pr_Action) p.
Proof. intros Hat N. destruct s0 as [|c s']; [korun|]. pose proof (N c s' eq_refl). korun. Qed.

Lemma eof_ok p t : At p [] -> C (EName pr_EndOfFile) p p [] t t.
Proof. intros Hat. cgo. Qed.

End Lex.
