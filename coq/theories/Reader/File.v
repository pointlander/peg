(** The file level of the .peg language: header comments, package, imports, the parser type, the rules. *)
From PegV Require Import Base.Tac Base.ListX Spec.Syntax Spec.Peg Proofs.PegRel Model.Calls Generated.PegPeg
  Reader.Base Reader.Lex Reader.Chars Reader.Lits Reader.Expr.
Local Open Scope Z_scope.

Lemma header_ok_tail l c a b : header_ok l (c :: a) -> header_ok l (c :: b).
Proof.
  induction l as [|h l IH]; cbn [header_ok]; [auto|]. intros [Hh Hl]. split; [|apply IH; exact Hl].
  destruct h as [sl body e|run]; cbn [hitem_ok] in *.
  - destruct Hh as (H1 & H2 & H3). repeat split; try assumption. intros E c0 r E0. specialize (H3 E).
    destruct (flat_map hshow l) as [|x m]; cbn [app] in *; inv E0; eapply H3; reflexivity.
  - destruct Hh as (H1 & H2 & H3). repeat split; try assumption. intros c0 r E0.
    destruct (flat_map hshow l) as [|x m]; cbn [app] in *; inv E0; eapply H3; reflexivity.
Qed.

Lemma C_star_plus buf penv e p p' cs t t' : C buf penv (EStar e) p p' cs t t' -> p' <> p -> C buf penv (EPlus e) p p' cs t t'.
Proof.
  intros (evs & (f & (n & v & Hev) & Htr) & Hcalls) Hne. exists evs. split; [|exact Hcalls]. exists f. split; [|exact Htr].
  destruct n as [|n]; [discriminate|]. exists (S n), v. cbn [peg_ev] in *.
  destruct (peg_ev pegpeg_d pegpeg_d_ptx buf penv n e p) as [[[|p1 f1] v1]|]; [|exact Hev|discriminate].
  inv Hev. congruence.
Qed.

(** the character classes as facts about the character, so that proofs need not carry the boolean formulas *)
Lemma is_sp_true c : is_sp c = true -> c = 32 \/ c = 9 \/ c = 10 \/ c = 13.
Proof. unfold is_sp. lia. Qed.
Lemma is_sp_false c : is_sp c = false -> c <> 32 /\ c <> 9 /\ c <> 10 /\ c <> 13.
Proof. unfold is_sp. lia. Qed.
Lemma is_pathc_true c : is_pathc c = true ->
  48 <= c <= 57 \/ 97 <= c <= 122 \/ 65 <= c <= 90 \/ c = 95 \/ c = 47 \/ c = 46 \/ c = 45.
Proof. unfold is_pathc. lia. Qed.
Lemma istart_pstart c : is_istart c = true -> pstart c = true.
Proof. intros H. unfold pstart. rewrite H. apply orb_true_r. Qed.
(** a letter or '_' is none of the other characters a primary can start with, nor '/' *)
Lemma istart_not_punct c : is_istart c = true ->
  c <> 38 /\ c <> 33 /\ c <> 40 /\ c <> 39 /\ c <> 34 /\ c <> 91 /\ c <> 46 /\ c <> 123 /\ c <> 60 /\ c <> 47.
Proof. unfold is_istart. lia. Qed.

Lemma stop_char c m : c <> 32 -> c <> 9 -> c <> 10 -> c <> 13 -> c <> 35 -> c <> 47 -> stop (c :: m).
Proof. intros. cbn [stop]. repeat split; try assumption. intros; lia. Qed.
Lemma ident_head id : ident_ok id = true -> exists c r, id = c :: r /\ is_istart c = true.
Proof. destruct id as [|c r]; [discriminate|]. cbn [ident_ok]. intros H. apply andb_true_iff in H. destruct H. eauto. Qed.
Lemma ident_stop id m : ident_ok id = true -> stop (id ++ m).
Proof. intros H. destruct (ident_head id H) as (c & r & -> & Hc). apply pstart_stop, istart_pstart, Hc. Qed.
Lemma lay_nic s m : lay s -> not_icont_head m -> not_icont_head (s ++ m).
Proof. intros Hs Hm. destruct s; [exact Hm|apply layhead_nic; [exact Hs|discriminate]]. Qed.
Lemma inshow_stop n tl : iname_ok n -> stop (inshow n ++ tl).
Proof.
  intros (_ & _ & Ha). destruct n as [[[id s]|] path]; unfold inshow; cbn [in_alias in_path] in *.
  - rewrite <- !app_assoc. apply ident_stop, Ha.
  - exact (pstart_stop 34 _ eq_refl).
Qed.
Lemma stop_close m : stop (41 :: m).
Proof. apply stop_char; discriminate. Qed.
Lemma mitems_stop l tl : Forall (fun ns : iname * list rune => iname_ok (fst ns) /\ lay (snd ns)) l ->
  stop (flat_map mitem_show l ++ 41 :: tl).
Proof.
  intros Hall. destruct Hall as [|[n s] l [Hn _] _]; cbn [flat_map app]; [apply stop_close|].
  unfold mitem_show at 1. cbn [fst snd] in *. rewrite <- !app_assoc. apply inshow_stop, Hn.
Qed.
Lemma imports_stop l tl : stop tl -> stop (flat_map impshow l ++ tl).
Proof. intros Hst. destruct l as [|[] l]; [exact Hst|exact (pstart_stop 105 _ eq_refl)..]. Qed.

Section File.
Variable buf : list rune.
Variable penv : nat -> nat -> bool.
Notation At := (At buf).
Notation C := (C buf penv).
Notation ko := (ko pegpeg_d pegpeg_d_ptx buf penv).

Lemma space_ko p s0 : At p s0 -> (forall c r, s0 = c :: r -> is_sp c = false) -> ko (EName pr_Space) p.
Proof.
  intros Hat N. destruct s0 as [|c r]; [korun|]. destruct (is_sp_false c (N c r eq_refl)) as (?&?&?&?). korun.
Qed.

Lemma space_star run tl p t : forallb is_sp run = true -> (forall c r, tl = c :: r -> is_sp c = false) -> At p (run ++ tl) ->
  C (EStar (EName pr_Space)) p (p + length run)%nat [] t t.
Proof.
  intros Hrun Htl. apply (C_star_pieces buf penv _ (fun r => forallb is_sp r = true) tl); [|intros q Hq; exact (space_ko q tl Hq Htl)|exact Hrun].
  clear p t run Hrun. intros [|c run] Hr N; [congruence|]. clear N. cbn [forallb] in Hr. apply andb_true_iff in Hr. destruct Hr as [Hc Hr].
  destruct (is_sp_true c Hc) as [-> | [-> | [-> | ->]]]; clear Hc.
  1-3: eexists [_], run; repeat split; [cbn [length]; lia|exact Hr|]; intros p t Hat; cbn [app] in Hat; cgo.
  (* "\r", or "\r\n" taken together *)
  destruct run as [|d run].
  - exists [13], []. repeat split; [cbn [length]; lia|]. intros p t Hat. cbn [app] in Hat.
    pose proof (fun t => eol_r buf penv _ _ t Hat ltac:(intros s' E; specialize (Htl _ _ E); discriminate Htl)) as Heol. cgo.
  - cbn [forallb] in Hr. destruct (Z.eq_dec d 10) as [->|N10].
    + exists [13; 10], run. repeat split; [cbn [length]; lia|exact Hr|]. intros p t Hat. cbn [app] in Hat.
      pose proof (fun t => eol_rn buf penv _ _ t Hat) as Heol. cgo.
    + exists [13], (d :: run). repeat split; [cbn [length]; lia|exact Hr|]. intros p t Hat. cbn [app] in Hat.
      pose proof (fun t => eol_r buf penv _ _ t Hat ltac:(intros s' E; inv E; congruence)) as Heol. cgo.
Qed.

Lemma eol_text p e tl t : is_eol e -> (e = [13] -> head_ne 10 tl) -> At p (e ++ tl) ->
  C (EName pr_EndOfLine) p (p + length e)%nat [] t t.
Proof.
  intros [-> | [-> | ->]] Hn Hat; cbn [app length] in *.
  - eapply C_eq; [eapply eol_n; exact Hat|lia|reflexivity|reflexivity].
  - eapply C_eq; [eapply eol_r; [exact Hat|]|lia|reflexivity|reflexivity].
    intros s' E. eapply (Hn eq_refl); [exact E|reflexivity].
  - eapply C_eq; [eapply eol_rn; exact Hat|lia|reflexivity|reflexivity].
Qed.
Lemma eol_first e : is_eol e -> exists c m, e = c :: m /\ is_lb c.
Proof. intros [-> | [-> | ->]]; eexists _, _; (split; [reflexivity|unfold is_lb; lia]). Qed.

Lemma hitem_parse h tl p t : hitem_ok h tl -> At p (hshow h ++ tl) ->
  exists t', C (EName pr_HeaderSpaceComment) p (p + length (hshow h))%nat [hcall h] t t'.
Proof.
  intros Hok Hat. destruct h as [sl body e|run]; cbn [hitem_ok hshow hcall] in *.
  - destruct Hok as (Hb & He & Hn). destruct (eol_first e He) as (c & m & Ee & Hc).
    assert (Hbody : forall q t, At q (body ++ e ++ tl) -> C (EStar (ESeq [ENot (EName pr_EndOfLine); EDot])) q (q + length body)%nat [] t t).
    { intros q t0 Hq. rewrite Ee in Hq. cbn [app] in Hq. eapply comment_body; eassumption. }
    rewrite <- !app_assoc in Hat. atn Hat as A1. atn A1 as A2.
    assert (Hopen : forall t, C (EAlt [EChar 35; ESeq [EChar 47; EChar 47]]) p (p + length (if sl then [47; 47]%Z else [35]%Z))%nat [] t t)
      by (intros t0; destruct sl; cbn [app] in Hat; cgo).
    pose proof (fun t => Hbody _ t A1) as K1. pose proof (fun t => eol_text _ _ _ t He Hn A2) as K2.
    pose proof (At_sub _ _ body _ A1) as Hsub.
    zr. eexists. cgo.
  - destruct Hok as (Hne & Hr & Htl). destruct run as [|c run]; [congruence|].
    pose proof (At_sub _ _ (c :: run) _ Hat) as Hsub.
    pose proof (fun t => C_star_plus _ _ _ _ _ _ _ _ (space_star (c :: run) tl p t Hr Htl Hat) ltac:(cbn [length]; lia)) as Hplus.
    cbn [forallb] in Hr. apply andb_true_iff in Hr. destruct Hr as [Hc _]. apply is_sp_true in Hc. cbn [app] in Hat.
    assert (Kc : ko (EName pr_HeaderComment) p).
    { assert (c <> 35 /\ c <> 47) as [? ?] by lia. korun. }
    eexists. cgo.
Qed.

Lemma header_star l tl p t : header_ok l tl -> stop tl -> At p (flat_map hshow l ++ tl) ->
  exists t', C (EStar (EName pr_HeaderSpaceComment)) p (p + length (flat_map hshow l))%nat (map hcall l) t t'.
Proof.
  replace (map hcall l) with (flat_map (fun h => [hcall h]) l) by (induction l as [|h l' IH]; [reflexivity|cbn [flat_map map app]; rewrite IH; reflexivity]).
  intros Hok Hst.
  apply (C_star_items buf penv hshow (fun h => [hcall h]) (fun l => header_ok l tl)); [| |exact Hok].
  - intros h l' q t0 [Hh Hl] Hat. split; [exact Hl|]. exact (hitem_parse h _ q t0 Hh Hat).
  - intros q _ Hat. destruct (stop_kos buf penv q tl Hat Hst) as (K1 & K2 & K3). korun.
Qed.

Notation pathc := (EAlt [ERange 48 57; ERange 97 122; ERange 65 90; EChar 95; EChar 47; EChar 46; EChar 45]).
Lemma pathc_ok p c s t : At p (c :: s) -> is_pathc c = true -> C pathc p (S p) [] t t.
Proof.
  intros Hat Hc. destruct (is_pathc_true c Hc) as [R|[R|[R|[->|[->|[->| ->]]]]]]; clear Hc; cgo.
Qed.
Lemma pathc_ko p s0 : At p s0 -> (forall c s', s0 = c :: s' -> is_pathc c = false) -> ko pathc p.
Proof.
  intros Hat N. destruct s0 as [|c s']; [korun|]. specialize (N c s' eq_refl). unfold is_pathc in N.
  (* one arithmetic goal for the seven alternatives, instead of one each *)
  apply (ko_dead buf penv _ 0 [(c, c)] _ _ Hat); [cbn [in_window]; lia|]. cbv -[Z.ltb orb andb]. lia.
Qed.

Lemma iname_parse n tl p t : iname_ok n -> At p (inshow n ++ tl) ->
  exists t', C (EName pr_ImportName) p (p + length (inshow n))%nat (incalls n) t t'.
Proof.
  intros (Hne & Hp & Ha) Hat. destruct n as [al path]. unfold inshow, incalls in *. cbn [in_alias in_path] in *.
  destruct path as [|c path]; [congruence|].
  assert (Hplus : forall q t0, At q ((c :: path) ++ [34] ++ tl) ->
    C (EPlus pathc) q (q + length (c :: path))%nat [] t0 t0).
  { intros q t0 Hq. apply C_star_plus; [|cbn [length]; lia].
    exact (C_star_run buf penv _ _ pathc_ok pathc_ko (c :: path) _ (34 :: tl) t0 Hp ltac:(intros ? ? E; inv E; reflexivity) Hq). }
  destruct al as [[id s]|].
  - destruct Ha as [Hid Hs]. rewrite <- !app_assoc in Hat. cbn [app] in Hat.
    pose proof (pstart_stop 34 ((c :: path) ++ 34 :: tl) eq_refl) as Hst.
    assert (Hn : not_icont_head (s ++ 34 :: (c :: path) ++ 34 :: tl)) by (apply lay_nic; [exact Hs|intros ? ? E; inv E; reflexivity]).
    rewrite <- app_assoc in Hat. cbn [app] in Hat.
    pose proof (fun t => identifier_ok buf penv id s _ p t Hid Hs Hst Hn Hat) as Hident.
    pose proof (At_sub _ _ id _ Hat) as Hsub1.
    atn Hat as A1. atn A1 as A2. at1 A2 as A3.
    pose proof (fun t => Hplus _ t A3) as Hq.
    pose proof (At_sub _ _ (c :: path) _ A3) as Hsub2. pose proof (At_app _ _ (c :: path) _ A3) as A4.
    eexists. into_rule.
    cgo.
  - cbn [app] in Hat. rewrite <- app_assoc in Hat. at1 Hat as A1.
    pose proof (fun t => Hplus _ t A1) as Hq.
    pose proof (At_sub _ _ (c :: path) _ A1) as Hsub2. pose proof (At_app _ _ (c :: path) _ A1) as A2.
    assert (Kid : ko (EName pr_Identifier) p) by (eapply identifier_ko; [exact Hat|intros ? ? E; inv E; reflexivity]).
    eexists. into_rule.
    cgo.
Qed.

Lemma iname_ko p s0 : At p s0 -> (forall c r, s0 = c :: r -> is_istart c = false /\ c <> 34) -> ko (EName pr_ImportName) p.
Proof.
  intros Hat N. assert (Kid : ko (EName pr_Identifier) p) by (eapply identifier_ko; [exact Hat|intros c r E; apply (N c r E)]).
  destruct s0 as [|c r]; [korun|]. destruct (N c r eq_refl) as [_ Hc]. korun.
Qed.

Lemma import_ko p s0 : At p s0 -> head_ne 105 s0 -> ko (EName pr_Import) p.
Proof. intros Hat N. destruct s0 as [|c r]; [korun|]. pose proof (N c r eq_refl). korun. Qed.

Lemma mitems_star l tl p t :
  Forall (fun ns : iname * list rune => iname_ok (fst ns) /\ lay (snd ns)) l -> At p (flat_map mitem_show l ++ 41 :: tl) ->
  exists t', C (EStar (ESeq [EName pr_ImportName; EChar 10; EName pr_Spacing])) p (p + length (flat_map mitem_show l))%nat
               (flat_map (fun ns : iname * list rune => incalls (fst ns)) l) t t'.
Proof.
  apply (C_star_items buf penv mitem_show (fun ns => incalls (fst ns))
           (Forall (fun ns : iname * list rune => iname_ok (fst ns) /\ lay (snd ns)))).
  - intros [n s] l' q t0 Hall Hat. inversion Hall as [|? ? [Hn Hs] Hall']; subst. split; [exact Hall'|]. cbn [fst snd] in *.
    change (mitem_show (n, s)) with (inshow n ++ 10 :: s) in *. rewrite <- !app_assoc in Hat. cbn [app] in Hat.
    destruct (iname_parse n _ q t0 Hn Hat) as [t1 H1]. atn Hat as A1. at1 A1 as A2.
    pose proof (fun t => spacing_ok buf penv _ _ _ t Hs (mitems_stop l' tl Hall') A2) as Hsp.
    exists t1. cgo.
  - intros q _ Hat.
    assert (K : ko (EName pr_ImportName) q) by (eapply iname_ko; [exact Hat|intros c r E; inv E; split; [reflexivity|lia]]).
    korun.
Qed.

Lemma import_parse i tl p t : imp_ok i -> stop tl -> At p (impshow i ++ tl) ->
  exists t', C (EName pr_Import) p (p + length (impshow i))%nat (impcalls i) t t'.
Proof.
  intros Hok Hst Hat. destruct i as [s1 n s2|s1 s2 items s3]; cbn [imp_ok impshow impcalls] in *.
  - destruct Hok as (Hs1 & Hn & Hs2). rewrite <- !app_assoc in Hat. atl Hat as B6. cbn [kw_import app length Nat.add] in *.
    pose proof (fun t => spacing_ok buf penv _ _ _ t Hs1 (inshow_stop n _ Hn) B6) as Hsp1. atn B6 as B7.
    destruct (iname_parse n _ _ t Hn B7) as [t1 H1]. atn B7 as B8.
    pose proof (fun t => spacing_ok buf penv _ _ _ t Hs2 Hst B8) as Hsp2.
    assert (Kopen : ko (EName pr_MultiImport) (S (S (S (S (S (S p))))) + length s1)%nat).
    { destruct n as [[[id s]|] path]; unfold inshow in B7; cbn [in_alias in_path app] in B7.
      - destruct Hn as (_ & _ & Hid & _). destruct (ident_head id Hid) as (c & r & -> & Hc).
        cbn [app] in B7. destruct (istart_not_punct c Hc) as (_ & _ & N40 & _). korun.
      - korun. }
    exists t1. into_rule. cgo.
  - destruct Hok as (Hs1 & Hs2 & Hs3 & Hall). norm_app Hat. atl Hat as B6. cbn [kw_import app length Nat.add] in *.
    pose proof (fun t => spacing_ok buf penv _ _ _ t Hs1 (pstart_stop 40 _ eq_refl) B6) as Hsp1.
    atn B6 as B7. at1 B7 as B8.
    pose proof (fun t => spacing_ok buf penv _ _ _ t Hs2 (mitems_stop items _ Hall) B8) as Hsp2. atn B8 as B9.
    destruct (mitems_star items _ _ t Hall B9) as [t1 H1]. atn B9 as B10.
    pose proof (fun t => spacing_ok buf penv [] _ _ t lay_nil (stop_close _) B10) as Hsp0.
    cbn [length] in Hsp0. rewrite Nat.add_0_r in Hsp0. at1 B10 as B11.
    pose proof (fun t => spacing_ok buf penv _ _ _ t Hs3 Hst B11) as Hsp3.
    exists t1. into_rule. cgo.
Qed.

Lemma imports_star l tl p t : Forall imp_ok l -> stop tl -> ko (EName pr_Import) (p + length (flat_map impshow l))%nat ->
  At p (flat_map impshow l ++ tl) ->
  exists t', C (EStar (EName pr_Import)) p (p + length (flat_map impshow l))%nat (flat_map impcalls l) t t'.
Proof.
  intros Hall Hst Kend Hat. apply (C_star_items buf penv impshow impcalls (Forall imp_ok) _ tl); [| |exact Hall|exact Hat].
  - intros i l' q t0 Hil Hq. inversion Hil as [|? ? Hi Hl']; subst. split; [exact Hl'|].
    exact (import_parse i _ q t0 Hi (imports_stop l' tl Hst) Hq).
  - intros q _ Hq. rewrite (At_inj _ _ _ _ Hq (At_app _ _ _ _ Hat)). exact Kend.
Qed.

Lemma arrow_parse uni s2 rest p t : lay s2 -> stop rest -> At p (arrow_text uni ++ s2 ++ rest) ->
  C (EName pr_LeftArrow) p (p + length (arrow_text uni) + length s2)%nat [] t t.
Proof.
  intros Hs Hst Hat. destruct uni; cbn [arrow_text app length] in *.
  - eapply C_eq; [eapply arrow_uni; eassumption|lia|reflexivity|reflexivity].
  - eapply C_eq; [eapply arrow_ascii; eassumption|lia|reflexivity|reflexivity].
Qed.
Lemma arrow_stop uni m : stop (arrow_text uni ++ m).
Proof. destruct uni; cbn [arrow_text app]; [apply stop_char; discriminate|exact (pstart_stop 60 _ eq_refl)]. Qed.
Lemma arrow_nic uni m : not_icont_head (arrow_text uni ++ m).
Proof. destruct uni; cbn [arrow_text app]; intros c r E; inv E; reflexivity. Qed.

Lemma defstart_facts q tl : At q tl -> defstart tl ->
  fol buf penv q tl /\ ko (EName pr_Prefix) q /\ ko (EName pr_Slash) q /\ head_ne 47 tl /\ stop tl /\
  (forall t, C (EAnd (EAlt [ESeq [EName pr_Identifier; EName pr_LeftArrow]; ENot EDot])) q q [] t t).
Proof.
  intros Hat [->|(id & s1 & uni & s2 & rest & -> & Hid & Hs1 & Hs2 & Hst)].
  - split; [apply fol_eof; exact Hat|]. split; [eapply prefix_ko; [exact Hat|intros ? ? E; discriminate E]|].
    split; [eapply tok_ko; [lookup|exact Hat|intros ? ? E; discriminate E]|]. split; [intros ? ? E; discriminate E|].
    split; [exact I|]. intros t. cgo.
  - pose proof (fun t => identifier_ok buf penv id s1 _ q t Hid Hs1 (arrow_stop uni _) (lay_nic _ _ Hs1 (arrow_nic uni _)) Hat) as Hident.
    atn Hat as A1. atn A1 as A2.
    pose proof (fun t => arrow_parse uni s2 rest _ t Hs2 Hst A2) as Harrow.
    destruct (ident_head id Hid) as (c & r & -> & Hc). cbn [app] in Hat |- *.
    destruct (istart_not_punct c Hc) as (?&?&?&?&?&?&?&?&N60&N47). apply istart_pstart in Hc.
    split; [apply start_fol; [exact Hat|exact Hc|intros E; contradiction]|].
    (* Prefix: the name is followed by an arrow *)
    split; [korun|].
    split; [eapply tok_ko; [lookup|exact Hat|intros ? ? E; inv E; exact N47]|].
    split; [intros ? ? E; inv E; exact N47|]. split; [apply pstart_stop; exact Hc|].
    intros t. cgo.
Qed.

(** a rule up to the look-ahead that ends it (53 and 54 are the actions AddRule and AddExpression) *)
Lemma def_items d tl p q t : def_ok d -> stop tl -> (glue (d_body d) = true -> not_icont_head tl) ->
  At p (dshow d ++ tl) -> At q tl -> fol buf penv q tl -> ko (EName pr_Prefix) q -> ko (EName pr_Slash) q -> head_ne 47 tl ->
  exists t', Cs buf penv [EName pr_Identifier; EName 53%nat; EName pr_LeftArrow; EName pr_Expression; EName 54%nat] p q (dcalls d) t t'.
Proof.
  intros (Hid & Hs1 & Hs2 & Hw) Hstl Hg Hat Aq F Kp Ks H47. destruct d as [id s1 uni s2 e]. unfold dshow, dcalls in *.
  cbn [d_name d_s1 d_uni d_s2 d_body] in *. rewrite <- !app_assoc in Hat.
  pose proof (fun t => identifier_ok buf penv id s1 _ p t Hid Hs1 (arrow_stop uni _) (lay_nic _ _ Hs1 (arrow_nic uni _)) Hat) as Hident.
  pose proof (At_sub _ _ id _ Hat) as Hsub.
  atn Hat as A1. atn A1 as A2. atn A2 as A3. atn A3 as A4. atn A4 as A5. pose proof (At_inj _ _ _ _ Aq A5) as ->.
  pose proof (fun t => arrow_parse uni s2 _ _ t Hs2 (show_stop e tl Hw Hstl) A2) as Harrow.
  destruct (expression_ok buf penv e Hw tl _ (p, (p + length id)%nat) A4 F Hg Kp Ks H47) as [t1 He].
  exists t1. eapply Cs_eq; [crun|reflexivity|cbn [app]; rewrite ?app_nil_r, <- ?app_assoc; reflexivity|reflexivity].
Qed.

Lemma def_parse d tl p t : def_ok d -> defstart tl -> (glue (d_body d) = true -> not_icont_head tl) -> At p (dshow d ++ tl) ->
  exists t', C (EName pr_Definition) p (p + length (dshow d))%nat (dcalls d) t t'.
Proof.
  intros Hd Hds Hg Hat. atn Hat as A. destruct (defstart_facts _ _ A Hds) as (F & Kp & Ks & H47 & Hstl & Hand).
  destruct (def_items d tl p _ t Hd Hstl Hg Hat A F Kp Ks H47) as [t1 S].
  exists t1. into_rule. apply C_seq.
  eapply Cs_eq; [eapply Cs_app with (1 := S); crun|reflexivity|cbn [app]; rewrite app_nil_r; reflexivity|reflexivity].
Qed.

Lemma defs_stop l rest : defs_ok l -> stop rest -> stop (flat_map dshow l ++ rest).
Proof.
  intros Hl Hr. destruct l as [|d l]; [exact Hr|]. cbn [defs_ok flat_map] in *. destruct Hl as ((Hid & _) & _).
  unfold dshow. rewrite <- !app_assoc. apply ident_stop. exact Hid.
Qed.
Lemma defs_start d l rest : defs_ok (d :: l) -> stop rest -> defstart (flat_map dshow (d :: l) ++ rest).
Proof.
  cbn [defs_ok flat_map]. intros ((Hid & Hs1 & Hs2 & Hw) & _ & Hl) Hr. right.
  exists (d_name d), (d_s1 d), (d_uni d), (d_s2 d), (show (d_body d) ++ flat_map dshow l ++ rest).
  split; [unfold dshow; rewrite <- !app_assoc; reflexivity|]. repeat split; try assumption.
  apply show_stop; [exact Hw|apply defs_stop; assumption].
Qed.

Lemma defs_star l p t : defs_ok l -> At p (flat_map dshow l ++ []) ->
  exists t', C (EStar (EName pr_Definition)) p (p + length (flat_map dshow l))%nat (flat_map dcalls l) t t'.
Proof.
  apply (C_star_items buf penv dshow dcalls defs_ok).
  - intros d l' q t0 (Hd & Hg & Hl) Hat. split; [exact Hl|].
    apply (def_parse d (flat_map dshow l' ++ [])); [exact Hd| | |exact Hat].
    + destruct l' as [|d' l'']; [left; reflexivity|exact (defs_start d' l'' [] Hl I)].
    + intros E. destruct l' as [|d' l'']; [intros ? ? E0; discriminate E0|]. rewrite Hg in E; discriminate.
  - intros q _ Hat.
    assert (K : ko (EName pr_Identifier) q) by (eapply identifier_ko; [exact Hat|intros ? ? E; discriminate E]). korun.
Qed.

Notation kwe l := (ESeq (map EChar l)).

(** The items of the rule Grammar; its three actions are taken from the tree by their place. *)
Definition grammar_items : list expr :=
  match nth_error pegpeg_d pr_Grammar with Some (RBody (ESeq l)) => l | _ => [] end.
Definition act (i : nat) : expr := nth i grammar_items ENil.

Lemma act_package q t : C (act 4) q q [(CAddPackage, sub buf t)] t t.
Proof. let a := eval vm_compute in (act 4) in change (act 4) with a. cgo. Qed.
Lemma act_peg q t : C (act 9) q q [(CAddPeg, sub buf t)] t t.
Proof. let a := eval vm_compute in (act 9) in change (act 9) with a. cgo. Qed.
Lemma act_state q t : C (act 13) q q [(CAddState, sub buf t)] t t.
Proof. let a := eval vm_compute in (act 13) in change (act 13) with a. cgo. Qed.

(** The rule Grammar in segments.  Each reads its text from [p] and ends at some [p'] where the rest [tl] stands. *)
Lemma seg_head hdr spkg pkg s1 tl p t :
  header_ok hdr [112] -> lay spkg -> spkg <> [] -> ident_ok pkg = true -> lay s1 -> s1 <> [] -> stop tl ->
  At p (flat_map hshow hdr ++ kw_package ++ spkg ++ pkg ++ s1 ++ tl) ->
  exists p' t', Cs buf penv [EName pr_Header; kwe kw_package; EName pr_MustSpacing; EName pr_Identifier; act 4] p p'
                  (map hcall hdr ++ [(CAddPackage, pkg)]) t t' /\ At p' tl.
Proof.
  intros Hh Hsp Hspn Hpk Hs1 Hs1n Hst Hat. pose proof act_package as Hea.
  pose proof (header_ok_tail hdr 112 [] _ Hh : header_ok hdr (kw_package ++ spkg ++ pkg ++ s1 ++ tl)) as Hh'.
  destruct (header_star hdr _ p t Hh' (pstart_stop 112 _ eq_refl) Hat) as [t0 Hhdr].
  assert (Hhd : C (EName pr_Header) p (p + length (flat_map hshow hdr))%nat (map hcall hdr) t t0) by (into_rule; exact Hhdr).
  atn Hat as A0. atl A0 as B7. unfold kw_package in *. cbn [app length Nat.add] in *.
  pose proof (fun t => must_spacing_ok buf penv spkg _ _ t Hsp Hspn (ident_stop pkg _ Hpk) B7) as Hms1. atn B7 as B8.
  pose proof (fun t => identifier_ok buf penv pkg s1 _ _ t Hpk Hs1 Hst (layhead_nic _ _ Hs1 Hs1n) B8) as Hid1.
  pose proof (At_sub _ _ pkg _ B8) as Hsub1. atn B8 as B9. atn B9 as B10.
  eexists _, _. split; [|exact B10]. cbn [map].
  eapply Cs_eq; [crun|lia|cbn [app]; rewrite Hsub1, ?app_nil_r; reflexivity|reflexivity].
Qed.

Lemma seg_type stype peg s2 tl p t :
  lay stype -> stype <> [] -> ident_ok peg = true -> lay s2 -> s2 <> [] -> stop tl ->
  At p (kw_type ++ stype ++ peg ++ s2 ++ tl) ->
  exists p' t', Cs buf penv [kwe kw_type; EName pr_MustSpacing; EName pr_Identifier; act 9] p p' [(CAddPeg, peg)] t t' /\ At p' tl.
Proof.
  intros Hst Hstn Hpeg Hs2 Hs2n Htl Hat. pose proof act_peg as Hea. atl Hat as D4. unfold kw_type in *. cbn [app length Nat.add] in *.
  pose proof (fun t => must_spacing_ok buf penv stype _ _ t Hst Hstn (ident_stop peg _ Hpeg) D4) as Hms2. atn D4 as D5.
  pose proof (fun t => identifier_ok buf penv peg s2 _ _ t Hpeg Hs2 Htl (layhead_nic _ _ Hs2 Hs2n) D5) as Hid2.
  pose proof (At_sub _ _ peg _ D5) as Hsub2. atn D5 as D6. atn D6 as D7.
  eexists _, _. split; [|exact D7]. cbn [map].
  eapply Cs_eq; [crun|lia|cbn [app]; rewrite Hsub2, ?app_nil_r; reflexivity|reflexivity].
Qed.

Lemma seg_state s3 state s4 tl p t :
  lay s3 -> bal state -> lay s4 -> stop tl ->
  At p (kw_Peg ++ s3 ++ 123 :: state ++ 125 :: s4 ++ tl) ->
  exists p' t', Cs buf penv [kwe kw_Peg; EName pr_Spacing; EName pr_Action; act 13] p p' [(CAddState, state)] t t' /\ At p' tl.
Proof.
  intros Hs3 Hbal Hs4 Htl Hat. pose proof act_state as Hea. atl Hat as E3. unfold kw_Peg in *. cbn [app length Nat.add] in *.
  pose proof (fun t => spacing_ok buf penv s3 _ _ t Hs3 (pstart_stop 123 _ eq_refl) E3) as Hsp3. atn E3 as E4.
  pose proof (fun t => action_ok buf penv state s4 _ _ t Hbal Hs4 Htl E4) as Hact.
  at1 E4 as E5. pose proof (At_sub _ _ state _ E5) as Hsub3. atn E5 as E6. at1 E6 as E7. atn E7 as E8.
  eexists _, _. split; [|exact E8]. cbn [map].
  eapply Cs_eq; [crun|lia|cbn [app]; rewrite Hsub3, ?app_nil_r; reflexivity|reflexivity].
Qed.

Lemma seg_defs d defs p t : defs_ok (d :: defs) -> At p (flat_map dshow (d :: defs) ++ []) ->
  exists t', Cs buf penv [EPlus (EName pr_Definition); EName pr_EndOfFile] p (length buf) (flat_map dcalls (d :: defs)) t t'.
Proof.
  intros Hdefs Hat. destruct (defs_star (d :: defs) p t Hdefs Hat) as [t3 Hstar]. atn Hat as E.
  assert (Hne : (p + length (flat_map dshow (d :: defs)) <> p)%nat).
  { destruct Hdefs as ((Hid & _) & _). destruct (ident_head _ Hid) as (c & r & Ec & _).
    cbn [flat_map]. unfold dshow. rewrite Ec. cbn [app length]. lia. }
  exists t3. eapply Cs_eq; [eapply Cs_cons; [exact (C_star_plus _ _ _ _ _ _ _ _ Hstar Hne)|eapply Cs_cons; [apply (eof_ok buf penv _ t3 E)|apply Cs_nil]]
                             |exact (At_end _ _ E)|rewrite ?app_nil_r; reflexivity|reflexivity].
Qed.

(** the whole file: the rule Grammar reads all of it and makes the calls of the file *)
Theorem grammar_ok f t : file_ok f -> buf = fshow f ->
  exists t', C (EName pr_Grammar) 0 (length buf) (fcalls f) t t'.
Proof.
  intros (Hh & Hsp & Hspn & Hpk & Hs1 & Hs1n & Himp & Hst & Hstn & Hpeg & Hs2 & Hs2n & Hs3 & Hbal & Hs4 & Hdn & Hdefs) Ebuf.
  destruct f as [hdr spkg pkg s1 imps stype peg s2 s3 state s4 defs]. unfold fshow, fcalls in *.
  cbn [f_header f_s_pkg f_pkg f_s1 f_imports f_s_type f_peg f_s2 f_s3 f_state f_s4 f_defs] in *.
  destruct defs as [|d defs]; [congruence|].
  assert (Hat : At 0 (flat_map hshow hdr ++ kw_package ++ spkg ++ pkg ++ s1 ++ flat_map impshow imps ++
                      kw_type ++ stype ++ peg ++ s2 ++ kw_Peg ++ s3 ++ 123 :: state ++ 125 :: s4 ++ flat_map dshow (d :: defs) ++ [])).
  { rewrite app_nil_r. rewrite <- Ebuf. apply At_start. }
  destruct (seg_head hdr spkg pkg s1 _ 0%nat t Hh Hsp Hspn Hpk Hs1 Hs1n (imports_stop imps _ (pstart_stop 116 _ eq_refl)) Hat) as (p1 & t1 & S1 & A1).
  atn A1 as A2.
  pose proof (import_ko _ _ A2 ltac:(intros ? ? E; inv E; discriminate)) as Kimp.
  destruct (imports_star imps _ _ t1 Himp (pstart_stop 116 _ eq_refl) Kimp A1) as [t2 S2].
  destruct (seg_type stype peg s2 _ _ t2 Hst Hstn Hpeg Hs2 Hs2n (pstart_stop 80 _ eq_refl) A2) as (p3 & t3 & S3 & A3).
  destruct (seg_state s3 state s4 _ _ t3 Hs3 Hbal Hs4 (defs_stop _ [] Hdefs I) A3) as (p4 & t4 & S4 & A4).
  destruct (seg_defs d defs _ t4 Hdefs A4) as [t5 S5].
  exists t5. into_rule. apply C_seq.
  eapply Cs_eq; [eapply Cs_app with (1 := S1); eapply Cs_cons with (1 := S2); eapply Cs_app with (1 := S3); eapply Cs_app with (1 := S4); exact S5
                  |reflexivity|rewrite ?app_nil_r, <- ?app_assoc; reflexivity|reflexivity].
Qed.

End File.
