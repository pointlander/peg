(** Builder safety for EVERY text the front end accepts (well-formed in the sense of Reader/Defs.v or not): a
    stack-effect analysis of peg.peg's own rule tree.  Each expression gets an effect - which nodes its actions pop
    (a character node where AddRange needs one), which they push, whether they use the captured text as ONE character
    and whether they leave such a text - and the analysis is proved sound for every derivation: the builder calls
    Execute() makes never pop an empty stack, never misuse a node and keep the expression stack's depth as stated.
    The table of rule effects is computed and checked by evaluation on the regenerated rule tree
    ([eff_table], [eff_table_consistent]; [infer_sound]).  The calls of the file level - AddPackage, AddPeg,
    AddState, AddRule, AddExpression - have no such effect: the rules Grammar and Definition are walked item by
    item with assertions on the builder state ([Does]), the expressions inside them by the analysis
    ([Does_infer]).  [accepted_text_builds] is the result: the calls of any derivation of Grammar run through
    and leave a package name, the parser type, at least one rule and nothing half-built. *)
From PegV Require Import Reader.FileBridge Proofs.PegInv Base.Tac Base.ListX Spec.Syntax Spec.Peg Spec.Tokens Proofs.PegFacts Proofs.PegRel Model.Calls Model.Front
  Generated.PegPeg Reader.Base Reader.BridgeDefs.
Local Open Scope nat_scope.

Inductive kind := KChr | KAny.
Definition kind_eqb (a b : kind) : bool := match a, b with KChr, KChr | KAny, KAny => true | _, _ => false end.
(** a node known as [have] can be used where [need] is required *)
Definition sat (have need : kind) : bool := match need, have with KAny, _ => true | KChr, KChr => true | KChr, KAny => false end.

Record eff := mkeff {
  pops : list kind;            (* required on top of the stack, top first *)
  pushes : list kind;          (* what replaces them *)
  tneed : bool;                (* the captured text at entry is used as one character *)
  tset : option bool }.        (* None: text register unchanged; Some true: left holding one character; Some false: anything *)

Definition id_eff : eff := mkeff [] [] false None.

(** [need] popped from a stack whose top is known as [have]: what is needed below, what remains of [have] *)
Fixpoint consume (need have : list kind) : option (list kind * list kind) :=
  match need, have with
  | [], h => Some ([], h)
  | n, [] => Some (n, [])
  | k :: n', h :: h' => if sat h k then consume n' h' else None
  end.

Definition compose (a b : eff) : option eff :=
  match consume (pops b) (pushes a) with
  | None => None
  | Some (extra, remain) =>
      if (tneed b && match tset a with Some false => true | _ => false end)%bool then None
      else Some (mkeff (pops a ++ extra) (pushes b ++ remain)
                       (tneed a || (tneed b && match tset a with None => true | _ => false end))
                       (match tset b with Some x => Some x | None => tset a end))
  end.

Definition kmeet (a b : kind) : kind := match a, b with KChr, KChr => KChr | _, _ => KAny end.
Fixpoint kmeets (a b : list kind) : option (list kind) :=
  match a, b with
  | [], [] => Some []
  | x :: a', y :: b' => match kmeets a' b' with Some r => Some (kmeet x y :: r) | None => None end
  | _, _ => None
  end.
Fixpoint kinds_eqb (a b : list kind) : bool :=
  match a, b with [], [] => true | x :: a', y :: b' => kind_eqb x y && kinds_eqb a' b' | _, _ => false end.
Definition tmeet (a b : option bool) : option bool :=
  match a, b with
  | None, None => None
  | Some true, Some true => Some true
  | _, _ => Some false
  end.
(** an effect holds as well with more nodes below, which stay as they are *)
Definition lift (a : eff) (ks : list kind) : eff := mkeff (pops a ++ ks) (pushes a ++ ks) (tneed a) (tset a).
Definition join (a b : eff) : option eff :=
  let a' := lift a (skipn (length (pops a)) (pops b)) in
  let b' := lift b (skipn (length (pops b)) (pops a)) in
  if kinds_eqb (pops a') (pops b') then
    match kmeets (pushes a') (pushes b') with
    | Some ps => Some (mkeff (pops a') ps (tneed a || tneed b) (tmeet (tset a) (tset b)))
    | None => None
    end
  else None.

(** a loop body: what it pushes can be popped by the next round; the result forgets what the nodes are *)
Definition star_eff (b : eff) : option eff :=
  if (Nat.eqb (length (pops b)) (length (pushes b)) && forallb (fun hn : kind * kind => sat (fst hn) (snd hn)) (combine (pushes b) (pops b))
      && negb (tneed b && match tset b with Some false => true | _ => false end))%bool
  then Some (mkeff (pops b) (map (fun _ => KAny) (pushes b)) (tneed b) (match tset b with None => None | _ => Some false end))
  else None.

Definition one_arg (a : carg) : option bool :=     (* Some true: uses the captured text; Some false: a one-character constant *)
  match a with AText => Some true | AConst [_] => Some false | _ => None end.
Definition call_eff (c : bcall * carg) : option eff :=
  match fst c with
  | CAddName | CAddDot | CAddPredicate | CAddStateChange | CAddNil | CAddAction => Some (mkeff [] [KAny] false None)
  | CAddHexaCharacter | CAddOctalCharacter => Some (mkeff [] [KChr] false None)
  | CAddCharacter => match one_arg (snd c) with Some t => Some (mkeff [] [KChr] t None) | None => None end
  | CAddDoubleCharacter => match one_arg (snd c) with Some t => Some (mkeff [] [KAny] t None) | None => None end
  | CAddAlternate | CAddSequence => Some (mkeff [KAny; KAny] [KAny] false None)
  | CAddRange | CAddDoubleRange => Some (mkeff [KChr; KChr] [KAny] false None)
  | CAddPeekFor | CAddPeekNot | CAddQuery | CAddStar | CAddPlus | CAddPush => Some (mkeff [KAny] [KAny] false None)
  | CAddComment | CAddSpace | CAddPackage | CAddImportAlias | CAddImport => Some id_eff
  | CAddPeg | CAddState | CAddRule | CAddExpression => None
  end.
Fixpoint calls_eff (l : list (bcall * carg)) : option eff :=
  match l with
  | [] => Some id_eff
  | c :: l' => match call_eff c, calls_eff l' with Some a, Some b => compose a b | _, _ => None end
  end.

(** an expression that consumes exactly one character when it succeeds *)
Fixpoint one (e : expr) : bool :=
  match e with
  | EDot | EChar _ | ERange _ _ => true
  | EAlt es => match es with [] => false | _ => forallb one es end
  | _ => false
  end.

Lemma one_step g ptx buf penv : forall e p p' f, ok g ptx buf penv e p p' f -> one e = true -> p' = S p /\ S p <= length buf.
Proof.
  apply (ok_ind g ptx buf penv (fun e p p' _ => one e = true -> p' = S p /\ S p <= length buf)); try discriminate.
  - intros e p p' El ([|n] & evs & H) Ho; [discriminate|].
    destruct e; try discriminate El; try discriminate Ho; cbn [peg_ev] in H; injection H as H; exact (proj2 (term_succ _ _ _ _ _ _ H)).
  - intros K h U. destruct U; discriminate.
  - intros E A B r0 T. destruct T; discriminate.
  - intros [|x0 es] x p p' f Hin IH Ho; [destruct Hin|]. exact (IH (proj1 (forallb_forall _ _) Ho x Hin)).
Qed.

Section Infer.
Variable g : grammar.
Variable ptx : nat.
Variable acts : list (list (bcall * carg)).
Variable tab : nat -> option eff.

Fixpoint infer (e : expr) : option eff :=
  match e with
  | EDot | EChar _ | ERange _ _ | EPred _ | EState _ | EAct _ | ENil => Some id_eff
  | EName r =>
      if Nat.eqb r ptx then None else
      match nth_error g r with
      | Some (RBody _) => tab r
      | Some (RAct k) => calls_eff (nth k acts [])
      | _ => None
      end
  | ESeq es => fold_right (fun x acc => match infer x, acc with Some a, Some b => compose a b | _, _ => None end) (Some id_eff) es
  | EAlt es =>
      match es with
      | [] => None
      | x :: es' => fold_left (fun acc y => match acc, infer y with Some a, Some b => join a b | _, _ => None end) es' (infer x)
      end
  | EAnd _ | ENot _ => Some id_eff
  | EQuery e1 => match infer e1 with Some a => join a id_eff | None => None end
  | EStar e1 => match infer e1 with Some a => star_eff a | None => None end
  | EPlus e1 => match infer e1 with Some a => match star_eff a with Some s => compose a s | None => None end | None => None end
  | EPush e1 => match infer e1 with Some a => Some (mkeff (pops a) (pushes a) (tneed a) (Some (one e1))) | None => None end
  | ESwitch _ _ => None
  end.
End Infer.

Definition chr (x : expr) : bool := match x with EChar _ => true | _ => false end.
Definition fits (k : kind) (x : expr) : bool := match k with KAny => true | KChr => chr x end.
Definition matches (ks : list kind) (xs : list expr) : Prop := Forall2 (fun k x => fits k x = true) ks xs.
(** whatever fits [qs] fits [rs] *)
Definition covers (qs rs : list kind) : Prop :=
  length qs = length rs /\ forallb (fun hn : kind * kind => sat (fst hn) (snd hn)) (combine qs rs) = true.

Lemma sat_fits h k x : sat h k = true -> fits h x = true -> fits k x = true.
Proof. destruct h, k; cbn; auto; discriminate. Qed.
Lemma matches_app a b xs ys : matches a xs -> matches b ys -> matches (a ++ b) (xs ++ ys).
Proof. apply Forall2_app. Qed.
Lemma matches_nil_l xs : matches [] xs -> xs = [].
Proof. intros H. inv H. reflexivity. Qed.
Lemma matches_length ks xs : matches ks xs -> length ks = length xs.
Proof. induction 1; cbn; congruence. Qed.

Lemma covers_cons q qs r rs : covers (q :: qs) (r :: rs) <-> sat q r = true /\ covers qs rs.
Proof. unfold covers. cbn [length combine forallb fst snd]. rewrite andb_true_iff, Nat.succ_inj_wd. tauto. Qed.
Lemma covers_any qs : forall rs : list kind, length qs = length rs -> covers qs (map (fun _ => KAny) rs).
Proof.
  induction qs as [|q qs IH]; intros [|r rs] L; try discriminate L; [split; reflexivity|].
  apply covers_cons. split; [destruct q; reflexivity|apply IH; injection L; trivial].
Qed.
Lemma matches_weaken qs : forall rs ys, matches qs ys -> covers qs rs -> matches rs ys.
Proof.
  induction qs as [|q qs IH]; intros [|r rs] ys M Hc; try discriminate (proj1 Hc); inv M; [constructor|].
  apply covers_cons in Hc as [Hs Hc]. constructor; [eapply sat_fits; eassumption|apply IH; assumption].
Qed.
Lemma kmeets_weaken a : forall b r, kmeets a b = Some r -> covers a r /\ covers b r.
Proof.
  induction a as [|x a IH]; intros [|y b] r H; cbn in H; try discriminate; [inv H; repeat split|].
  destruct (kmeets a b) as [r'|] eqn:E; [|discriminate]. inv H. destruct (IH _ _ E) as [Ca Cb].
  split; apply covers_cons; (split; [destruct x, y; reflexivity|assumption]).
Qed.
Lemma kinds_eqb_eq a : forall b, kinds_eqb a b = true -> a = b.
Proof.
  induction a as [|x a IH]; intros [|y b] H; cbn in H; try discriminate; [reflexivity|].
  apply andb_true_iff in H. destruct H as [H1 H2]. rewrite (IH _ H2). destruct x, y; try discriminate; reflexivity.
Qed.

Lemma consume_sound need : forall have extra remain ys zs,
  consume need have = Some (extra, remain) -> matches have ys -> matches extra zs ->
  exists ys1 ys2, ys = ys1 ++ ys2 /\ matches need (ys1 ++ zs) /\ matches remain ys2 /\ (zs = [] \/ ys2 = []).
Proof.
  induction need as [|k need IH]; intros have extra remain ys zs H Hy Hz.
  - cbn in H. inv H. apply matches_nil_l in Hz. subst zs. exists [], ys. repeat split; auto. constructor.
  - destruct have as [|h have].
    + cbn in H. inv H. inv Hy. exists [], []. repeat split; auto. constructor.
    + cbn [consume] in H. destruct (sat h k) eqn:Es; [|discriminate]. inversion Hy as [|? y ? l Hf Hr]; subst.
      destruct (IH _ _ _ _ _ H Hr Hz) as (ys1 & ys2 & -> & M1 & M2 & D). exists (y :: ys1), ys2.
      split; [reflexivity|]. split; [constructor; [eapply sat_fits; eassumption|exact M1]|]. split; assumption.
Qed.
Lemma consume_loop ps : forall qs, covers qs ps -> consume ps qs = Some ([], []).
Proof.
  induction ps as [|k ps IH]; intros [|h qs] Hc; try discriminate (proj1 Hc); [reflexivity|].
  apply covers_cons in Hc as [Hs Hc]. cbn [consume]. rewrite Hs. apply IH. exact Hc.
Qed.

Lemma star_eff_inv b se : star_eff b = Some se ->
  covers (pushes b) (pops b) /\ (tneed b = true -> tset b <> Some false) /\
  se = mkeff (pops b) (map (fun _ => KAny) (pushes b)) (tneed b) (match tset b with None => None | _ => Some false end).
Proof.
  unfold star_eff. intros H.
  destruct (Nat.eqb (length (pops b)) (length (pushes b))) eqn:E1; [|discriminate]. cbn [andb] in H.
  destruct (forallb _ _) eqn:E2; [|discriminate]. cbn [andb] in H.
  destruct (negb _) eqn:E3; [|discriminate]. inv H. apply Nat.eqb_eq in E1. repeat split; auto.
  intros X Y. rewrite X, Y in E3. discriminate.
Qed.
(** a loop is its body followed by the loop *)
Lemma star_compose b se : star_eff b = Some se -> compose b se = Some se.
Proof.
  intros H. destruct (star_eff_inv _ _ H) as (Hc & Tn & ->). unfold compose. cbn [pops pushes tneed tset].
  rewrite (consume_loop _ _ Hc), !app_nil_r. destruct (tneed b), (tset b) as [[|]|]; try reflexivity.
  destruct (Tn eq_refl eq_refl).
Qed.

Definition tab_step (guess : nat -> option (option eff)) (T : list (option eff)) : list (option eff) :=
  map (fun r => match guess r with
                | Some gs => gs
                | None => match nth_error pegpeg_d r with
                          | Some (RBody b) => infer pegpeg_d pegpeg_d_ptx pegpeg_calls (fun r' => nth r' T None) b
                          | _ => None
                          end
                end) (seq 0 (length pegpeg_d)).
(** (Spec/WF.v, which this file does not import, has the same [iter] for its own tables) *)
Fixpoint iter {A} (n : nat) (f : A -> A) (x : A) : A := match n with O => x | S n => iter n f (f x) end.
(** two guesses break the cycles  Expression -> Sequence -> Prefix -> Suffix -> Primary -> Expression  and
    ActionBody -> ActionBody; like every entry they are checked below.  From them the table is complete after nine
    rounds; the number matters to no proof, which use only that the result is a fixed point ([eff_table_consistent]) *)
Definition guess0 (r : nat) : option (option eff) :=
  if Nat.eqb r pr_Expression then Some (Some (mkeff [] [KAny] false (Some false)))
  else if Nat.eqb r pr_ActionBody then Some (Some id_eff) else None.
(** the number of rounds is no part of the argument: soundness asks only that the table be a fixed point, and
    that is checked of whatever table comes out ([eff_table_consistent]) *)
Definition eff_table : list (option eff) := iter 24 (tab_step guess0) (map (fun _ => None) pegpeg_d).
Definition eff_tab (r : nat) : option eff := nth r eff_table None.

Lemma eff_table_consistent : forall r b x, nth_error pegpeg_d r = Some (RBody b) -> eff_tab r = Some x ->
  infer pegpeg_d pegpeg_d_ptx pegpeg_calls eff_tab b = Some x.
Proof.
  assert (H : map (fun r => match nth_error pegpeg_d r, eff_tab r with
                            | Some (RBody b), Some _ => infer pegpeg_d pegpeg_d_ptx pegpeg_calls eff_tab b
                            | _, _ => None end) (seq 0 (length pegpeg_d))
            = map (fun r => match nth_error pegpeg_d r with Some (RBody _) => eff_tab r | _ => None end) (seq 0 (length pegpeg_d)))
    by (vm_compute; reflexivity).
  intros r b x Hr Hx. assert (L : r < length pegpeg_d) by (apply nth_error_Some; congruence).
  pose proof (proj1 map_ext_in_iff H r ltac:(apply in_seq; lia)) as E. cbv beta in E. rewrite Hr, Hx in E. exact E.
Qed.

Section Sem.
Variable nm : list rune -> nat.
Variable ak : list rune -> nat.
Variable buf : list rune.
Variable penv : nat -> nat -> bool.
Notation G := pegpeg_d.
Notation PTX := pegpeg_d_ptx.
Notation ev := (peg_ev G PTX buf penv).
Notation ok := (ok G PTX buf penv).
Notation tr := (tr G PTX buf).
Notation sub := (sub buf).
Notation frun := (frun nm ak).
Notation fstep := (fstep nm ak).

Definition tl1 (t : nat * nat) : Prop := length (sub t) = 1.
Definition tpost (o : option bool) (t t' : nat * nat) : Prop :=
  match o with None => t' = t | Some true => tl1 t' | Some false => True end.

(** the calls [cs], run on any builder state whose expression stack has nodes fitting [ps] on top, go through and
    leave nodes fitting [qs] in their place; the rest of the stack and the file-level state are untouched *)
Definition CSem (cs : list call) (ps qs : list kind) : Prop :=
  forall s xs rest, stk s = xs ++ rest -> matches ps xs ->
  exists s' ys, frun cs s = Some s' /\ stk s' = ys ++ rest /\ matches qs ys /\ pend s' = pend s /\ pegn s' = pegn s /\
                (exists more, back s' = back s ++ more).

Definition Sem (f : list dt) (e : eff) : Prop :=
  forall t, (tneed e = true -> tl1 t) ->
    CSem (calls (fst (tr f t))) (pops e) (pushes e) /\ tpost (tset e) t (snd (tr f t)).

(** the same of any piece [w] of the walk over a derivation: from the text register at its start, the calls it makes
    and the register afterwards.  [Sem f] is [Acts (walk f)]. *)
Definition Acts (w : nat * nat -> list call * (nat * nat)) (e : eff) : Prop :=
  forall t, (tneed e = true -> tl1 t) -> CSem (fst (w t)) (pops e) (pushes e) /\ tpost (tset e) t (snd (w t)).
Definition walk (f : list dt) (t : nat * nat) : list call * (nat * nat) := (calls (fst (tr f t)), snd (tr f t)).
Definition say (l : list (bcall * carg)) (t : nat * nat) : list call * (nat * nat) :=
  (map (fun ca : bcall * carg => (fst ca, arg_of (snd ca) (sub t))) l, t).

Lemma tr_cat f1 f2 t : tr (f1 ++ f2) t = (fst (tr f1 t) ++ fst (tr f2 (snd (tr f1 t))), snd (tr f2 (snd (tr f1 t)))).
Proof. eapply tr_app; apply surjective_pairing. Qed.

Lemma CSem_nil : CSem [] [] [].
Proof. intros s xs rest E M. apply matches_nil_l in M. subst xs. exists s, []. repeat split; auto; [constructor|exists []; rewrite app_nil_r; reflexivity]. Qed.

Lemma CSem_compose cs1 cs2 p1 q1 p2 q2 extra remain :
  CSem cs1 p1 q1 -> CSem cs2 p2 q2 -> consume p2 q1 = Some (extra, remain) ->
  CSem (cs1 ++ cs2) (p1 ++ extra) (q2 ++ remain).
Proof.
  intros H1 H2 Hc s xs rest E M.
  destruct (Forall2_app_inv_l _ _ M) as (xs1 & zs & M1 & Mz & Exs). subst xs. rewrite <- app_assoc in E.
  destruct (H1 s xs1 (zs ++ rest) E M1) as (s1 & ys & R1 & E1 & My & P1 & G1 & (m1 & B1)).
  destruct (consume_sound _ _ _ _ _ _ Hc My Mz) as (ys1 & ys2 & Ey & Mn & Mr & D).
  assert (E1' : stk s1 = (ys1 ++ zs) ++ (ys2 ++ rest)).
  { rewrite E1, Ey. destruct D as [->| ->]; rewrite ?app_nil_r, <- ?app_assoc; reflexivity. }
  destruct (H2 s1 _ _ E1' Mn) as (s2 & ws & R2 & E2 & Mw & P2 & G2 & (m2 & B2)).
  exists s2, (ws ++ ys2). rewrite frun_app, R1. split; [exact R2|]. split; [rewrite E2, <- app_assoc; reflexivity|].
  split; [apply matches_app; assumption|]. split; [congruence|]. split; [congruence|]. exists (m1 ++ m2). rewrite B2, B1, app_assoc. reflexivity.
Qed.

Lemma CSem_weaken cs p q r : CSem cs p q -> covers q r -> CSem cs p r.
Proof.
  intros H Hc s xs rest E M. destruct (H s xs rest E M) as (s' & ys & R & E' & My & P & Gn & B).
  exists s', ys. repeat split; auto. eapply matches_weaken; eassumption.
Qed.

Lemma tpost_meet a b t t' : tpost a t t' \/ tpost b t t' -> tpost (tmeet a b) t t'.
Proof. destruct a as [[|]|], b as [[|]|]; cbn; tauto. Qed.

Lemma CSem_frame cs p q ks : CSem cs p q -> CSem cs (p ++ ks) (q ++ ks).
Proof.
  intros H s xs rest E M. destruct (Forall2_app_inv_l _ _ M) as (xs1 & xs2 & M1 & M2 & ->). rewrite <- app_assoc in E.
  destruct (H s xs1 (xs2 ++ rest) E M1) as (s' & ys & R & E' & My & P & Gn & B).
  exists s', (ys ++ xs2). rewrite <- app_assoc. repeat split; auto. apply matches_app; assumption.
Qed.
Lemma Sem_lift f a ks : Sem f a -> Sem f (lift a ks).
Proof. intros H t Ht. destruct (H t Ht) as [C T0]. split; [apply CSem_frame; exact C|exact T0]. Qed.

Lemma Sem_join f a b c : join a b = Some c -> (Sem f a -> Sem f c) /\ (Sem f b -> Sem f c).
Proof.
  intros J. unfold join in J.
  set (a' := lift a (skipn (length (pops a)) (pops b))) in *. set (b' := lift b (skipn (length (pops b)) (pops a))) in *.
  destruct (kinds_eqb (pops a') (pops b')) eqn:Ep; [|discriminate]. apply kinds_eqb_eq in Ep.
  destruct (kmeets (pushes a') (pushes b')) as [ps|] eqn:Ek; [|discriminate]. inv J.
  destruct (kmeets_weaken _ _ _ Ek) as [Ca Cb].
  split; intros H t Ht; cbn [tneed pops pushes tset] in *.
  - destruct (Sem_lift _ _ (skipn (length (pops a)) (pops b)) H t) as [C Tp]; [intros X; apply Ht; cbn [lift tneed] in X; rewrite X; reflexivity|].
    split; [eapply CSem_weaken; eassumption|apply tpost_meet; left; exact Tp].
  - destruct (Sem_lift _ _ (skipn (length (pops b)) (pops a)) H t) as [C Tp]; [intros X; apply Ht; cbn [lift tneed] in X; rewrite X; apply orb_true_r|].
    unfold a', b' in *. cbn [lift pops pushes] in *. rewrite Ep. split; [eapply CSem_weaken; eassumption|apply tpost_meet; right; exact Tp].
Qed.

Lemma Acts_then w1 w2 a b c : Acts w1 a -> Acts w2 b -> compose a b = Some c ->
  Acts (fun t => (fst (w1 t) ++ fst (w2 (snd (w1 t))), snd (w2 (snd (w1 t))))) c.
Proof.
  intros H1 H2 Hc. unfold compose in Hc. destruct (consume (pops b) (pushes a)) as [[extra remain]|] eqn:Ec; [|discriminate].
  destruct (tneed b && match tset a with Some false => true | _ => false end)%bool eqn:Eb; [discriminate|]. inv Hc.
  intros t Ht. cbn [tneed pops pushes tset fst snd] in *.
  destruct (H1 t) as [C1 T1]; [intros X; apply Ht; rewrite X; reflexivity|].
  destruct (H2 (snd (w1 t))) as [C2 T2].
  { intros X. rewrite X in *. cbn [andb] in *. destruct (tset a) as [[|]|]; cbn [tpost] in T1; [exact T1|discriminate|].
    rewrite T1. apply Ht. rewrite orb_true_r. reflexivity. }
  split; [eapply CSem_compose; eassumption|].
  destruct (tset b) as [[|]|]; cbn [tpost] in *; auto. rewrite T2. exact T1.
Qed.

Lemma Sem_nil : Sem [] id_eff.
Proof. intros t _. exact (conj CSem_nil eq_refl). Qed.
Lemma Sem_app f1 f2 a b c : Sem f1 a -> Sem f2 b -> compose a b = Some c -> Sem (f1 ++ f2) c.
Proof.
  intros H1 H2 Hc t Ht. rewrite tr_cat. cbn [fst snd]. rewrite calls_app. exact (Acts_then (walk f1) (walk f2) a b c H1 H2 Hc t Ht).
Qed.

Lemma matches1 k xs : matches [k] xs -> exists x, xs = [x] /\ fits k x = true.
Proof. intros H. inversion H as [|? x ? l F Hr]; subst. apply matches_nil_l in Hr. subst l. eauto. Qed.
Lemma matches2 k1 k2 xs : matches [k1; k2] xs -> exists x y, xs = [x; y] /\ fits k1 x = true /\ fits k2 y = true.
Proof.
  intros H. inversion H as [|a b l l' Fx Hr]; subst. pose proof (matches1 _ _ Hr) as (y & -> & F). eauto.
Qed.
Lemma chr_inv x : chr x = true -> exists c, x = EChar c.
Proof. destruct x; try discriminate. eauto. Qed.

Lemma CSem_bop c o ps qs : bop_of nm ak c = Some o ->
  (forall xs rest, matches ps xs -> exists ys, bstep (xs ++ rest) o = Some (ys ++ rest) /\ matches qs ys) -> CSem [c] ps qs.
Proof.
  intros Ho Hb s xs rest E M. destruct (Hb xs rest M) as (ys & B & My).
  exists {| back := back s; pend := pend s; stk := ys ++ rest; pegn := pegn s |}, ys.
  split; [cbn [BridgeDefs.frun]; unfold BridgeDefs.fstep; rewrite Ho, E, B; reflexivity|].
  split; [reflexivity|]. split; [exact My|]. split; [reflexivity|]. split; [reflexivity|]. exists []. symmetry. apply app_nil_r.
Qed.
(** the operations come in four shapes: push a node, wrap the top node, join the two top nodes, join two characters *)
Lemma bpush o x k : (forall st, bstep st o = Some (x :: st)) -> fits k x = true ->
  forall xs rest, matches [] xs -> exists ys, bstep (xs ++ rest) o = Some (ys ++ rest) /\ matches [k] ys.
Proof. intros Hb Hk xs rest M. apply matches_nil_l in M. subst xs. exists [x]. split; [apply Hb|constructor; [exact Hk|constructor]]. Qed.
Lemma bunary o (w : expr -> expr) : (forall a st, bstep (a :: st) o = Some (w a :: st)) ->
  forall xs rest, matches [KAny] xs -> exists ys, bstep (xs ++ rest) o = Some (ys ++ rest) /\ matches [KAny] ys.
Proof. intros Hb xs rest M. apply matches1 in M. destruct M as (a & -> & _). exists [w a]. split; [apply Hb|repeat constructor]. Qed.
Lemma bbinary o (w : expr -> expr -> expr) : (forall a b st, bstep (a :: b :: st) o = Some (w a b :: st)) ->
  forall xs rest, matches [KAny; KAny] xs -> exists ys, bstep (xs ++ rest) o = Some (ys ++ rest) /\ matches [KAny] ys.
Proof. intros Hb xs rest M. apply matches2 in M. destruct M as (a & b & -> & _ & _). exists [w a b]. split; [apply Hb|repeat constructor]. Qed.
Lemma brange o (w : Z -> Z -> expr) : (forall hi lo st, bstep (EChar hi :: EChar lo :: st) o = Some (w hi lo :: st)) ->
  forall xs rest, matches [KChr; KChr] xs -> exists ys, bstep (xs ++ rest) o = Some (ys ++ rest) /\ matches [KAny] ys.
Proof.
  intros Hb xs rest M. apply matches2 in M. destruct M as (a & b & -> & Fa & Fb).
  apply chr_inv in Fa. apply chr_inv in Fb. destruct Fa as [hi ->]. destruct Fb as [lo ->].
  exists [w hi lo]. split; [apply Hb|repeat constructor].
Qed.
(** the other calls leave the stack alone and enter a node *)
Lemma CSem_back c n : (forall s, fstep s c = Some (push_back s n)) -> CSem [c] [] [].
Proof.
  intros Hf s xs rest E M. apply matches_nil_l in M. subst xs. exists (push_back s n), [].
  split; [cbn [BridgeDefs.frun]; rewrite Hf; reflexivity|].
  split; [exact E|]. split; [constructor|]. split; [reflexivity|]. split; [reflexivity|]. eexists. reflexivity.
Qed.

Lemma one_arg_char a u t : one_arg a = Some u -> (u = true -> tl1 t) -> exists c, arg_of a (sub t) = [c].
Proof.
  intros Ea Ht. destruct a as [| |l]; try discriminate.
  - inv Ea. specialize (Ht eq_refl). unfold tl1 in Ht. cbn [arg_of]. destruct (sub t) as [|c [|]]; try discriminate. eauto.
  - cbn [one_arg] in Ea. destruct l as [|c [|]]; try discriminate. cbn [arg_of]. eauto.
Qed.

Lemma call_sem c e : call_eff c = Some e -> Acts (say [c]) e.
Proof.
  destruct c as [bc a]. intros H t Ht. unfold call_eff in H. cbn [fst snd say map] in *.
  destruct bc; try discriminate; try (inv H; cbn [pops pushes tset tpost]; split; [|reflexivity]);
    try (eapply CSem_bop; [reflexivity|]);
    first [ eapply bpush; [intros; reflexivity|reflexivity] | eapply bunary; intros; reflexivity
          | eapply bbinary; intros; reflexivity | eapply brange; intros; reflexivity
          | eapply CSem_back; intros; reflexivity | idtac ].
  (* AddCharacter, AddDoubleCharacter: the argument is one character *)
  all: destruct (one_arg a) as [u|] eqn:Ea; [|discriminate]; inv H; cbn [pops pushes tset tneed tpost] in *.
  all: destruct (one_arg_char a u t Ea Ht) as [c ->]; split; [|reflexivity].
  all: eapply CSem_bop; [reflexivity|]; eapply bpush; [intros; reflexivity|reflexivity].
Qed.

Lemma calls_sem l : forall e, calls_eff l = Some e -> Acts (say l) e.
Proof.
  induction l as [|c l IH]; intros e H; cbn [calls_eff] in H.
  - inv H. intros t _. exact (conj CSem_nil eq_refl).
  - destruct (call_eff c) as [a|] eqn:Ea; [|discriminate]. destruct (calls_eff l) as [b|] eqn:Eb; [|discriminate].
    exact (Acts_then (say [c]) (say l) a b e (call_sem c a Ea) (IH b eq_refl) H).
Qed.

Lemma Sem_act r k p e : nth_error G r = Some (RAct k) -> r <> PTX -> calls_eff (nth k pegpeg_calls []) = Some e -> Sem [Node r p p []] e.
Proof.
  intros Hr Hn He t Ht. rewrite (tr_node_act _ _ _ _ _ _ _ Hr Hn). cbn [fst snd calls flat_map]. rewrite app_nil_r.
  exact (calls_sem _ e He t Ht).
Qed.
Lemma Sem_body r b p p' f e : nth_error G r = Some (RBody b) -> r <> PTX -> Sem f e -> Sem [Node r p p' f] e.
Proof. intros Hr Hn H t Ht. rewrite (tr_node_body _ _ _ _ _ _ _ _ _ Hr Hn). exact (H t Ht). Qed.

Lemma tl1_one p : S p <= length buf -> tl1 (p, S p).
Proof.
  intros H. unfold tl1, PegRel.sub. cbn [fst snd]. replace (S p - p) with 1 by lia.
  rewrite firstn_length, skipn_length. lia.
Qed.
Lemma Sem_push p p' f a (o : bool) : Sem f a -> (o = true -> p' = S p /\ S p <= length buf) ->
  Sem [Node PTX p p' f] (mkeff (pops a) (pushes a) (tneed a) (Some o)).
Proof.
  intros H Ho t Ht. cbn [tneed pops pushes tset] in *. rewrite tr_node_push. cbn [fst snd].
  destruct (H t Ht) as [C _]. split; [exact C|]. destruct o; cbn [tpost]; [|exact I].
  destruct (Ho eq_refl) as [-> L]. apply tl1_one. exact L.
Qed.

Lemma Sem_star_nil b se : star_eff b = Some se -> Sem [] se.
Proof.
  intros H. destruct (star_eff_inv _ _ H) as ([L _] & _ & ->). intros t Ht. rewrite tr_nil. cbn [fst snd calls flat_map pops pushes tset].
  split; [|destruct (tset b); cbn; auto].
  exact (CSem_weaken _ _ _ _ (CSem_frame _ _ _ (pops b) CSem_nil) (covers_any _ _ (eq_sym L))).
Qed.

Section Sound.
Variable tab : nat -> option eff.
Notation infer := (infer G PTX pegpeg_calls tab).
(** the table is a fixed point: the effect declared for a rule is the effect inferred for its body *)
Hypothesis Hcons : forall r b x, nth_error G r = Some (RBody b) -> tab r = Some x -> infer b = Some x.

Notation J := (fun acc y => match acc, infer y with Some a, Some b => join a b | _, _ => None end).
Lemma fold_join_none es : fold_left J es None = None.
Proof. induction es as [|y es IH]; [reflexivity|exact IH]. Qed.
Lemma fold_join_sound f es : forall acc x, fold_left J es acc = Some x ->
  exists a, acc = Some a /\ (Sem f a -> Sem f x) /\
  forall y, In y es -> exists ay, infer y = Some ay /\ (Sem f ay -> Sem f x).
Proof.
  induction es as [|y es IH]; intros acc x H; cbn [fold_left] in H.
  - exists x. split; [exact H|]. split; [auto|intros y []].
  - destruct acc as [a|]; [|rewrite fold_join_none in H; discriminate].
    destruct (infer y) as [b|] eqn:Ey; [|rewrite fold_join_none in H; discriminate].
    destruct (IH _ _ H) as (c & Ej & I1 & I2). destruct (Sem_join f _ _ _ Ej) as [Ja Jb].
    exists a. split; [reflexivity|]. split; [auto|].
    intros y0 [<-|Hin]; [exists b; auto|apply I2; exact Hin].
Qed.

Lemma infer_then E A B r0 : seqlike E A B r0 -> forall c, infer E = Some c ->
  exists a b, infer A = Some a /\ infer B = Some b /\ compose a b = Some c.
Proof.
  intros T. destruct T; intros c Hi; cbn [Safe.infer fold_right] in *.
  - destruct (infer x) as [a|]; [|discriminate]. destruct (fold_right _ _ es) as [b|]; [|discriminate]. eauto.
  - destruct (infer e) as [a|]; [|discriminate]. exists a, c. auto using star_compose.
  - destruct (infer e) as [a|]; [|discriminate]. destruct (star_eff a) as [s|]; [|discriminate]. eauto.
Qed.

Lemma infer_ok : forall e p p' f, ok e p p' f -> forall x, infer e = Some x -> Sem f x.
Proof.
  apply (ok_ind G PTX buf penv (fun e _ _ f => forall x, infer e = Some x -> Sem f x)).
  - intros e _ _ El _ x Hi. destruct e; try discriminate El; inv Hi; apply Sem_nil.
  - intros K h U e p r p' f Y IH Eh x Hi. destruct U; cbn [Safe.infer] in Hi.
    1, 2: destruct r; inv Eh; inv Hi; apply Sem_nil.   (* a look-ahead keeps no forest *)
    + destruct (infer e) as [a|] eqn:Ea; [|discriminate]. destruct r as [|q fq]; inv Eh.
      * exact (proj2 (Sem_join _ _ _ _ Hi) Sem_nil).
      * exact (proj1 (Sem_join _ _ _ _ Hi) (IH _ _ eq_refl _ eq_refl)).
    + destruct (infer e) as [a|] eqn:Ea; [|discriminate]. inv Hi. destruct r as [|q fq]; inv Eh.
      apply Sem_push; [exact (IH _ _ eq_refl _ eq_refl)|]. exact (one_step _ _ _ _ _ _ _ _ Y).
  - intros _ x Hi. inv Hi. apply Sem_nil.
  - intros e _ _ x Hi. cbn [Safe.infer] in Hi. destruct (infer e) as [a|]; [|discriminate]. exact (Sem_star_nil _ _ Hi).
  - intros E A B r0 T _ _ f1 _ f2 _ IA _ IB x Hi. destruct (infer_then _ _ _ _ T x Hi) as (a & b & Ea & Eb & Ec).
    exact (Sem_app _ _ _ _ _ (IA _ Ea) (IB _ Eb) Ec).
  - intros [|x0 es] y _ _ f Hin IH x Hi; [destruct Hin|]. destruct (fold_join_sound f es _ _ Hi) as (a & Ea & I1 & I2).
    destruct Hin as [<-|Hin]; [exact (I1 (IH _ Ea))|]. destruct (I2 y Hin) as (ay & Ey & K). exact (K (IH _ Ey)).
  - intros r b p p' f Er IH x Hi. cbn [Safe.infer] in Hi. destruct (Nat.eqb_spec r PTX) as [|Nr]; [discriminate|]. rewrite Er in Hi.
    exact (Sem_body _ _ _ _ _ _ Er Nr (IH _ (Hcons _ _ _ Er Hi))).
  - intros r k p Er x Hi. cbn [Safe.infer] in Hi. destruct (Nat.eqb_spec r PTX) as [|Nr]; [discriminate|]. rewrite Er in Hi.
    exact (Sem_act _ _ _ _ Er Nr Hi).
  - discriminate.
Qed.

Theorem infer_sound n : forall e p p' f evs x, ev n e p = Some (Succ p' f, evs) -> infer e = Some x -> Sem f x.
Proof. intros e p p' f evs x H. exact (infer_ok e p p' f (ex_intro _ n (ex_intro _ evs H)) x). Qed.

End Sound.

Notation infer := (infer G PTX pegpeg_calls eff_tab).

Definition run (f : list dt) (t : nat * nat) (s : fstate) : option fstate := frun (calls (fst (tr f t))) s.

Lemma run_app f1 f2 t s : run (f1 ++ f2) t s = match run f1 t s with Some s1 => run f2 (snd (tr f1 t)) s1 | None => None end.
Proof. unfold run. rewrite tr_cat. cbn [fst]. rewrite calls_app. apply frun_app. Qed.

(** The file level: AddPackage, AddPeg, AddState, AddRule, AddExpression.
    These calls have no stack effect of the kind above; what they need and leave is said by assertions on the builder
    state, and the rules Grammar and Definition are walked item by item.
    [Does e P Q]: whenever [e] succeeds, the calls of its derivation take a state in [P] to a state in [Q], whatever
    text is captured when they start. *)
Definition Runs (f : list dt) (P Q : fstate -> Prop) : Prop := forall t s, P s -> exists s', run f t s = Some s' /\ Q s'.
Definition Does (e : expr) (P Q : fstate -> Prop) : Prop := forall p p' f, ok e p p' f -> Runs f P Q.

Lemma Runs_app f1 f2 P Q R : Runs f1 P Q -> Runs f2 Q R -> Runs (f1 ++ f2) P R.
Proof.
  intros H1 H2 t s Ps. destruct (H1 t s Ps) as (s1 & R1 & Q1). destruct (H2 (snd (tr f1 t)) s1 Q1) as (s2 & R2 & Q2).
  exists s2. rewrite run_app, R1. auto.
Qed.

Lemma Does_then E A B r0 P Q R : then_shape G PTX buf penv E A B r0 -> (forall p, r0 p = Fail) ->
  Does A P Q -> Does B Q R -> Does E P R.
Proof.
  intros T H0 H1 H2 p p' f H. apply (proj1 (T p (Succ p' f))) in H as [[_ X]|(p1 & f1 & [|p2 f2] & Y1 & Y2 & X)];
    [rewrite H0 in X; discriminate X|discriminate X|].
  inv X. exact (Runs_app _ _ _ _ _ (H1 _ _ _ Y1) (H2 _ _ _ Y2)).
Qed.
Lemma Does_cons e es P Q R : Does e P Q -> Does (ESeq es) Q R -> Does (ESeq (e :: es)) P R.
Proof. exact (Does_then _ _ _ _ P Q R (seqlike_shape G PTX buf penv _ _ _ _ (sl_seq e es)) (fun _ => eq_refl)). Qed.
Lemma Does_plus e P Q : Does e P Q -> Does (EStar e) Q Q -> Does (EPlus e) P Q.
Proof. exact (Does_then _ _ _ _ P Q Q (seqlike_shape G PTX buf penv _ _ _ _ (sl_plus e)) (fun _ => eq_refl)). Qed.
Lemma Does_star e P : Does e P P -> Does (EStar e) P P.
Proof.
  intros He. enough (H : forall E p p' f, ok E p p' f -> E = EStar e -> Runs f P P) by (intros p p' f Y; exact (H _ _ _ _ Y eq_refl)).
  apply (ok_ind G PTX buf penv (fun E _ _ f => E = EStar e -> Runs f P P)); try discriminate.
  - intros E _ _ El _ ->. discriminate El.
  - intros K h U. destruct U; discriminate.
  - intros _ _ _ _ t s Ps. exists s. split; [reflexivity|exact Ps].
  - intros E A B r0 T p p1 f1 p2 f2 YA _ _ IB EE. destruct T; inv EE. exact (Runs_app _ _ _ _ _ (He _ _ _ YA) (IB eq_refl)).
Qed.
Lemma Does_name r b P Q : nth_error G r = Some (RBody b) -> r <> PTX -> Does b P Q -> Does (EName r) P Q.
Proof.
  intros Hr Hn Hb p p' f H t s Ps. apply (proj1 (name_yields G PTX buf penv r p (Succ p' f))) in H. rewrite Hr in H.
  destruct H as ([|q fq] & Y & E); inv E. unfold run. rewrite (tr_node_body _ _ _ _ _ _ _ _ _ Hr Hn). exact (Hb _ _ _ Y t s Ps).
Qed.
(** the call [c], whatever its argument, takes the builder from [P] to [Q] *)
Definition Step (c : bcall) (P Q : fstate -> Prop) : Prop := forall x s, P s -> exists s', fstep s (c, x) = Some s' /\ Q s'.
Lemma Does_act r k c a (P Q : fstate -> Prop) : nth_error G r = Some (RAct k) -> r <> PTX -> nth k pegpeg_calls [] = [(c, a)] ->
  Step c P Q -> Does (EName r) P Q.
Proof.
  intros Hr Hn Hc Hstep p p' f H t s Ps. apply (proj1 (name_yields G PTX buf penv r p (Succ p' f))) in H. rewrite Hr in H. inv H.
  unfold run. rewrite (tr_node_act _ _ _ _ _ _ _ Hr Hn). unfold calls, calls1. cbn [fst snd flat_map]. rewrite Hc. cbn [map app fst snd BridgeDefs.frun].
  destruct (Hstep (arg_of a (sub t)) s Ps) as (s' & E & Qs). exists s'. rewrite E. auto.
Qed.

(** what has been entered so far: a package name, the parser type, a rule *)
Definition marks (hp hg hr : bool) (l : list fnode) : Prop :=
  (hp = true -> exists pk, In (NPackage pk) l) /\ (hg = true -> exists name st, In (NPeg name st) l) /\
  (hr = true -> exists name e, In (NRule name e) l).
Lemma marks_app hp hg hr l m : marks hp hg hr l -> marks hp hg hr (l ++ m).
Proof.
  intros (P & T & R). repeat split; intros E;
    [destruct (P E) as (x & I)|destruct (T E) as (x & y & I)|destruct (R E) as (x & y & I)]; eauto using in_or_app.
Qed.
(** the builder with [d] nodes on its stack, inside a rule or not ([r]), with the parser type named and its state
    still awaited or not ([g]) *)
Definition mid (d : nat) (r g hp hg hr : bool) (s : fstate) : Prop :=
  length (stk s) = d /\ (pend s = None <-> r = false) /\ (pegn s = None <-> g = false) /\ marks hp hg hr (back s).

Lemma Does_infer e x d d' r g hp hg hr : infer e = Some x -> pops x = [] -> tneed x = false -> d' = length (pushes x) + d ->
  Does e (mid d r g hp hg hr) (mid d' r g hp hg hr).
Proof.
  intros Hi Hp Hn -> p p' f H t s (L & Pd & Pg & M).
  destruct (infer_ok eff_tab eff_table_consistent e p p' f H x Hi t) as [C _]; [rewrite Hn; discriminate|].
  rewrite Hp in C. destruct (C s [] (stk s) eq_refl ltac:(constructor)) as (s' & ys & R & E & My & P & Gn & (more & B)).
  exists s'. split; [exact R|]. unfold mid. rewrite E, app_length, <- (matches_length _ _ My), L, P, Gn, B.
  exact (conj eq_refl (conj Pd (conj Pg (marks_app _ _ _ _ _ M)))).
Qed.

Lemma step_package d r g hp hg hr : Step CAddPackage (mid d r g hp hg hr) (mid d r g true hg hr).
Proof.
  intros x s (L & Pd & Pg & M). eexists. split; [reflexivity|]. destruct (marks_app _ _ _ _ [NPackage x] M) as (_ & T & R).
  refine (conj L (conj Pd (conj Pg (conj _ (conj T R))))). intros _. exists x. apply in_elt.
Qed.
Lemma step_peg d r hp hg hr : Step CAddPeg (mid d r false hp hg hr) (mid d r true hp hg hr).
Proof.
  intros x s (L & Pd & Pg & M). unfold BridgeDefs.fstep. cbn [bop_of]. rewrite (proj2 Pg eq_refl). eexists. split; [reflexivity|].
  refine (conj L (conj Pd (conj _ M))). split; discriminate.
Qed.
Lemma step_state d r hp hg hr : Step CAddState (mid d r true hp hg hr) (mid d r false hp true hr).
Proof.
  intros x s (L & Pd & Pg & M). unfold BridgeDefs.fstep. cbn [bop_of]. destruct (pegn s) as [name|]; [|discriminate (proj1 Pg eq_refl)].
  eexists. split; [reflexivity|]. destruct (marks_app _ _ _ _ [NPeg name x] M) as (P & _ & R).
  refine (conj L (conj Pd (conj _ (conj P (conj _ R))))); [split; reflexivity|]. intros _. exists name, x. apply in_elt.
Qed.
Lemma step_rule g hp hg hr : Step CAddRule (mid 0 false g hp hg hr) (mid 0 true g hp hg hr).
Proof.
  intros x s (L & Pd & Pg & M). unfold BridgeDefs.fstep. cbn [bop_of]. rewrite (proj2 Pd eq_refl). destruct (stk s); [|discriminate L].
  eexists. split; [reflexivity|]. refine (conj eq_refl (conj _ (conj Pg M))). split; discriminate.
Qed.
Lemma step_expression g hp hg hr : Step CAddExpression (mid 1 true g hp hg hr) (mid 0 false g hp hg true).
Proof.
  intros x s (L & Pd & Pg & M). unfold BridgeDefs.fstep. cbn [bop_of]. destruct (pend s) as [name|]; [|discriminate (proj1 Pd eq_refl)].
  destruct (stk s) as [|e [|]]; try discriminate L.
  eexists. split; [reflexivity|]. destruct (marks_app _ _ _ _ [NRule name e] M) as (P & T & _).
  refine (conj eq_refl (conj _ (conj Pg (conj P (conj T _))))); [split; reflexivity|]. intros _. exists name, e. apply in_elt.
Qed.

Ltac by_infer := eapply Does_infer; [vm_compute; reflexivity|reflexivity|reflexivity|reflexivity].
Ltac by_act step := eapply Does_act; [lookup|notptx|vm_compute; reflexivity|apply step].

(** one rule: its name, AddRule, the arrow, the expression's calls, AddExpression, the look-ahead *)
Lemma Does_definition g hp hg hr : Does (EName pr_Definition) (mid 0 false g hp hg hr) (mid 0 false g hp hg true).
Proof.
  eapply Does_name; [lookup|notptx|].
  eapply Does_cons; [by_infer|]. eapply Does_cons; [by_act step_rule|]. eapply Does_cons; [by_infer|].
  eapply Does_cons; [by_infer|]. eapply Does_cons; [by_act step_expression|]. by_infer.
Qed.

(** Whatever text the rule Grammar accepts - written as Reader/Defs.v describes or not -, the builder calls its
    actions make never pop an empty stack and never misuse a node; they leave a package name, the parser type
    with its state, at least one rule, and nothing half-built. *)
Theorem accepted_text_builds n p f evs : ev n (EName pr_Grammar) 0 = Some (Succ p f, evs) ->
  exists s', run f (0, 0) finit = Some s' /\ stk s' = [] /\ pend s' = None /\ pegn s' = None /\
    (exists pk, In (NPackage pk) (back s')) /\ (exists name st, In (NPeg name st) (back s')) /\ (exists name e, In (NRule name e) (back s')).
Proof.
  intros H.
  assert (D : Does (EName pr_Grammar) (mid 0 false false false false false) (mid 0 false false true true true)).
  { eapply Does_name; [lookup|notptx|].
    (* Header 'package' MustSpacing Identifier AddPackage, Import* 'type' MustSpacing Identifier AddPeg,
       'Peg' Spacing Action AddState, Definition+ EndOfFile *)
    do 4 (eapply Does_cons; [by_infer|]). eapply Does_cons; [by_act step_package|].
    do 4 (eapply Does_cons; [by_infer|]). eapply Does_cons; [by_act step_peg|].
    do 3 (eapply Does_cons; [by_infer|]). eapply Does_cons; [by_act step_state|].
    eapply Does_cons; [eapply Does_plus; [apply Does_definition|apply Does_star; apply Does_definition]|by_infer]. }
  destruct (D 0 p f (ex_intro _ n (ex_intro _ evs H)) (0, 0) finit) as (s' & R & L & Pd & Pg & MP & MT & MR).
  { repeat split; try discriminate; reflexivity. }
  exists s'. split; [exact R|]. split; [destruct (stk s'); [reflexivity|discriminate L]|].
  split; [apply Pd; reflexivity|]. split; [apply Pg; reflexivity|]. auto.
Qed.

End Sem.
