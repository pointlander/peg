(** From the calls the reader makes to the tree the builder makes: the calls of a written expression are the
    builder calls Model/Front.v lists for the expression it denotes ([erase]), so the builder leaves exactly
    that expression's tree on its stack. *)
From PegV Require Import Base.Tac Base.ListX Spec.Syntax Model.Calls Model.Front Proofs.FrontProofs
  Reader.Base Reader.Lex Reader.Chars Reader.Lits Reader.Expr.
From PegV Require Export Reader.BridgeDefs.
Local Open Scope Z_scope.

Section Bridge.
Variable nm : list rune -> nat.          (* the number a rule name stands for in the model *)
Variable ak : list rune -> nat.          (* the number of an action / predicate text *)
Notation erase := (BridgeDefs.erase nm ak).
Notation bop_of := (BridgeDefs.bop_of nm ak).
Notation bops := (BridgeDefs.bops nm ak).
Notation build := (BridgeDefs.build nm ak).

Lemma bops_app a b : bops (a ++ b) = bops a ++ bops b.
Proof. apply map_app. Qed.
Lemma somes_app a b : somes (a ++ b) = somes a ++ somes b.
Proof. apply map_app. Qed.

Lemma esc_not_letter c : is_esc c = true -> is_letter (esc_val c) = false.
Proof.
  unfold is_esc. cbn [existsb esc_table fst]. intros H.
  repeat match type of H with
  | (?x =? c) || _ = true => destruct (Z.eqb_spec x c) as [E|?]; [subst c; reflexivity|cbn [orb] in H]
  end. discriminate.
Qed.
Lemma alpha_letter c : is_alpha c = is_letter c.
Proof. unfold is_alpha, is_letter. apply orb_comm. Qed.

Lemma kcall_char k : kvalid k = true -> bops [kcall false k] = somes (char_ops (sch k)).
Proof. destruct k; reflexivity. Qed.
Lemma kcall_dchar k : kvalid k = true -> bops [kcall true k] = somes (dchar_ops (sch k)).
Proof.
  destruct k as [c|c|x ds|ds]; cbn [kvalid kcall sch dchar_ops char_ops andb]; intros Hv; try reflexivity.
  - rewrite alpha_letter. destruct (is_letter c); reflexivity.
  - rewrite (esc_not_letter _ Hv). reflexivity.
Qed.

(** chains: the first part, then (part, operator) for the others, which may come wrapped ([pr]) *)
Lemma chain_bridge {A B} (ca : A -> list call) (oa : A -> list bop) (pr : B -> A) (sepc : call) (op : bop) a (l : list B) :
  bop_of sepc = Some op -> bops (ca a) = somes (oa a) -> Forall (fun b => bops (ca (pr b)) = somes (oa (pr b))) l ->
  bops (ca a ++ flat_map (fun b => ca (pr b) ++ [sepc]) l) = somes (chain_ops op (oa a :: map (fun b => oa (pr b)) l)).
Proof.
  intros Hs Ha Hl. cbn [chain_ops]. rewrite bops_app, somes_app, Ha. f_equal.
  induction Hl as [|b l Hb _ IH]; [reflexivity|].
  cbn [flat_map map]. rewrite !bops_app, !somes_app, Hb, IH. cbn [bops somes map]. rewrite Hs. reflexivity.
Qed.

Lemma items_valid {A} (show : A -> list rune) (okb : A -> list rune -> bool) (P : A -> Prop) :
  (forall a r, okb a r = true -> P a) -> forall l after, items_ok A show okb l after = true -> Forall P l.
Proof.
  intros H l. induction l as [|a l IH]; intros after Hok; [constructor|]. cbn [items_ok] in Hok.
  apply andb_true_iff in Hok. destruct Hok as [Ha Hl]. constructor; [eapply H; exact Ha|eapply IH; exact Hl].
Qed.
Lemma lit_item_valid q k r : lit_item_ok q k r = true -> kvalid k = true.
Proof. intros H. apply lit_item_ok_iff in H. apply H. Qed.
Lemma item_valid i r : item_okb i r = true ->
  match i with IChar k => kvalid k = true | IRange lo hi => kvalid lo = true /\ kvalid hi = true end.
Proof.
  destruct i as [k|lo hi]; intros H; [apply item_okb_char in H|apply item_okb_range in H]; tauto.
Qed.

Lemma lit_bridge dbl ks after : chars_ok (quote_of dbl) ks after = true ->
  bops (lit_calls dbl ks) = somes (ops_of (if dbl then Front.XILit (map sch ks) else Front.XLit (map sch ks))).
Proof.
  intros Hok. pose proof (items_valid _ _ (fun k => kvalid k = true) (lit_item_valid (quote_of dbl)) _ _ Hok) as Hv.
  destruct ks as [|k ks]; [destruct dbl; reflexivity|]. inversion Hv as [|? ? Hk Hks]; subst.
  destruct dbl; cbn [ops_of map]; rewrite map_map.
  - apply (chain_bridge (fun a => [kcall true a]) (fun x => dchar_ops (sch x)) (fun x => x) (CAddSequence, []) BSequence k ks eq_refl (kcall_dchar k Hk)).
    eapply Forall_impl; [exact kcall_dchar|exact Hks].
  - apply (chain_bridge (fun a => [kcall false a]) (fun x => char_ops (sch x)) (fun x => x) (CAddSequence, []) BSequence k ks eq_refl (kcall_char k Hk)).
    eapply Forall_impl; [exact kcall_char|exact Hks].
Qed.

Lemma icalls_bridge dbl i : match i with IChar k => kvalid k = true | IRange lo hi => kvalid lo = true /\ kvalid hi = true end ->
  bops (icalls dbl i) = somes (item_ops dbl (sitem i)).
Proof.
  destruct i as [k|lo hi]; cbn [icalls sitem item_ops].
  - intros Hv. destruct dbl; [apply kcall_dchar|apply kcall_char]; exact Hv.
  - intros [Hl Hh]. change [kcall false lo; kcall false hi; (if dbl then CAddDoubleRange else CAddRange, [])]
      with ([kcall false lo] ++ [kcall false hi] ++ [(if dbl then CAddDoubleRange else CAddRange, [])]).
    rewrite !bops_app, !somes_app, (kcall_char lo Hl), (kcall_char hi Hh). destruct dbl; reflexivity.
Qed.

Lemma class_bridge dbl neg items after : class_wf dbl neg items = true -> citems_ok items after = true ->
  bops (class_calls dbl neg items) = somes (ops_of (Front.XClass neg dbl (map sitem items))).
Proof.
  intros Hwf Hok.
  pose proof (items_valid _ _ _ item_valid _ _ Hok) as Hv.
  destruct items as [|i items].
  - cbn [class_wf] in Hwf. apply negb_true_iff in Hwf. subst neg. reflexivity.
  - inversion Hv as [|? ? Hi His]; subst. cbn [class_calls map].
    assert (E : ops_of (Front.XClass neg dbl (sitem i :: map sitem items)) =
                chain_ops BAlternate (map (item_ops dbl) (sitem i :: map sitem items)) ++ (if neg then [BPeekNot; BDot; BSequence] else [])).
    { destruct neg; reflexivity. }
    rewrite E, bops_app, somes_app. f_equal; [|destruct neg; reflexivity]. cbn [map]. rewrite map_map.
    apply (chain_bridge (icalls dbl) (fun x => item_ops dbl (sitem x)) (fun x => x) (CAddAlternate, []) BAlternate i items eq_refl (icalls_bridge dbl i Hi)).
    eapply Forall_impl; [exact (icalls_bridge dbl)|exact His].
Qed.

Theorem calls_are_builder_ops e : wf e -> bops (xcalls e) = somes (ops_of (erase e)).
Proof.
  induction e as [e IH] using cx_kids_ind. rewrite Forall_forall in IH. intros Hw.
  destruct e as [s|id s|a s|dbl ks s|dbl neg items s|s1 x s2|s1 x s2|op x s|op s x|op s1 a s2|l|e1 l trail|];
    cbn [xcalls erase kids] in *.
  - reflexivity.
  - reflexivity.
  - reflexivity.
  - destruct (wf_inv _ Hw) as [Hk Hs]. eapply lit_bridge. exact Hk.
  - destruct (wf_inv _ Hw) as (Hcw & Hci & Hra & Hs). eapply class_bridge; eassumption.
  - destruct (wf_inv _ Hw) as (Hs1 & Hwx & Hs2). apply IH; [left; reflexivity|exact Hwx].
  - destruct (wf_inv _ Hw) as (Hs1 & Hwx & Hs2).
    rewrite bops_app, (IH x (or_introl eq_refl) Hwx). cbn [ops_of]. rewrite somes_app. reflexivity.
  - destruct (wf_inv _ Hw) as (Hop & Hlx & Hwx & Hs).
    rewrite bops_app, (IH x (or_introl eq_refl) Hwx). destruct Hop as [-> | [-> | ->]]; cbn [Z.eqb Pos.eqb ops_of suf_call]; rewrite somes_app; reflexivity.
  - destruct (wf_inv _ Hw) as (Hop & Hs & Hlx & Hwx & Hh).
    rewrite bops_app, (IH x (or_introl eq_refl) Hwx). destruct Hop as [-> | ->]; cbn [Z.eqb Pos.eqb ops_of pre_call]; rewrite somes_app; reflexivity.
  - destruct (wf_inv _ Hw) as (Hop & Hs1 & Hb & Hs2). destruct Hop as [-> | ->]; reflexivity.
  - destruct (wf_inv _ Hw) as (Hlen & Hall & Hadj). destruct l as [|x l]; [reflexivity|].
    rewrite Forall_forall in Hall. cbn [ops_of map]. rewrite map_map.
    apply (chain_bridge xcalls (fun y => ops_of (erase y)) (fun y => y) (CAddSequence, []) BSequence x l eq_refl).
    + apply IH; [left; reflexivity|apply Hall; left; reflexivity].
    + apply Forall_forall. intros y Hy. apply IH; [right; exact Hy|apply Hall; right; exact Hy].
  - destruct (wf_inv _ Hw) as (Hl1 & Hw1 & Hall & Htr & Hne). rewrite Forall_forall in Hall.
    cbn [ops_of map]. rewrite map_map, app_assoc, bops_app, somes_app. f_equal; [|destruct trail; reflexivity].
    apply (chain_bridge xcalls (fun y => ops_of (erase y)) snd (CAddAlternate, []) BAlternate e1 l eq_refl (IH e1 (or_introl eq_refl) Hw1)).
    apply Forall_forall. intros sx Hin. apply IH; [right; apply in_map; exact Hin|apply Hall; exact Hin].
  - reflexivity.
Qed.

Lemma erase_ok e : wf e -> sx_ok (erase e) = true.
Proof.
  induction e as [e IH] using cx_kids_ind. rewrite Forall_forall in IH. intros Hw.
  destruct e as [s|id s|a s|dbl ks s|dbl neg items s|s1 x s2|s1 x s2|op x s|op s x|op s1 a s2|l|e1 l trail|];
    cbn [erase kids] in *; try reflexivity.
  - destruct dbl; reflexivity.
  - destruct (wf_inv _ Hw) as (Hcw & Hci & Hra & Hs). cbn [sx_ok].
    destruct items as [|i items]; [cbn [class_wf] in Hcw; apply negb_true_iff in Hcw; subst neg; reflexivity|].
    cbn [map]. rewrite andb_false_r. reflexivity.
  - destruct (wf_inv _ Hw) as (Hs1 & Hwx & Hs2). cbn [sx_ok]. apply IH; [left; reflexivity|exact Hwx].
  - destruct (wf_inv _ Hw) as (Hs1 & Hwx & Hs2). cbn [sx_ok]. apply IH; [left; reflexivity|exact Hwx].
  - destruct (wf_inv _ Hw) as (Hop & Hlx & Hwx & Hs).
    destruct Hop as [-> | [-> | ->]]; cbn [Z.eqb Pos.eqb sx_ok]; (apply IH; [left; reflexivity|exact Hwx]).
  - destruct (wf_inv _ Hw) as (Hop & Hs & Hlx & Hwx & Hh).
    destruct Hop as [-> | ->]; cbn [Z.eqb Pos.eqb sx_ok]; (apply IH; [left; reflexivity|exact Hwx]).
  - destruct (op =? 38); reflexivity.
  - destruct (wf_inv _ Hw) as (Hlen & Hall & Hadj). cbn [sx_ok].
    destruct l as [|x l]; [cbn in Hlen; lia|]. change (map erase (x :: l)) with (erase x :: map erase l) at 1. cbn [negb andb].
    apply forallb_forall. intros y Hy. apply in_map_iff in Hy. destruct Hy as (z & <- & Hz). rewrite Forall_forall in Hall.
    apply IH; [exact Hz|apply Hall; exact Hz].
  - destruct (wf_inv _ Hw) as (Hl1 & Hw1 & Hall & Htr & Hne). cbn [sx_ok negb andb forallb].
    rewrite (IH e1 (or_introl eq_refl) Hw1). cbn [andb]. apply forallb_forall. intros y Hy.
    apply in_map_iff in Hy. destruct Hy as (sx & <- & Hin). rewrite Forall_forall in Hall.
    apply IH; [right; apply in_map; exact Hin|apply Hall; exact Hin].
Qed.

Lemma all_some_somes {A} (l : list A) : all_some (map Some l) = Some l.
Proof. induction l as [|a l IH]; [reflexivity|]. cbn [map all_some]. rewrite IH. reflexivity. Qed.
Theorem calls_build_the_tree e : wf e ->
  exists tree, elab (erase e) = Some tree /\ forall stk, build (xcalls e) stk = Some (tree :: stk).
Proof.
  intros Hw. pose proof (erase_ok e Hw) as Hok.
  destruct (builder_stack_discipline _ Hok) as [tree Ht].
  exists tree. split.
  - unfold elab. rewrite (Ht []). reflexivity.
  - intros stk. unfold build. rewrite (calls_are_builder_ops e Hw). unfold somes. rewrite all_some_somes. apply Ht.
Qed.

End Bridge.
