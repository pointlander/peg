(** The reader theorem carried to the parser that is shipped: the machine (the model of the generated Go code,
    Model/Machine.v) of the -inline -switch tree of peg.peg, memoised or not, accepts the text of every
    well-formed file, and Execute() over its tokens makes the calls of the file.
    Composition of reader_file (Reader/Top.v), optimize_sound (the -switch tree has the same derivations) and
    the machine theorems C03/C04 (Proofs/Top.v) at the regenerated trees; what is evaluated on the trees
    themselves is what Properties/C17.v states. *)
From PegV Require Import Base.Tac Base.ListX Spec.Syntax Spec.Peg Spec.Tokens Spec.WF Model.Machine Model.Runtime Model.SkipCheck Model.Optimize Model.Gen
  Proofs.PegFacts Proofs.PegRel Proofs.OptSound Proofs.Top Proofs.OptTop Model.Calls Generated.PegPeg
  Reader.Base Reader.BridgeDefs Reader.File Reader.FileBridge Reader.Safe Reader.Top Properties.C17.
Local Open Scope nat_scope.

Definition ract_of (g : grammar) (r : nat) : option nat := match nth_error g r with Some (RAct k) => Some k | _ => None end.

Lemma trace_forest_acts g g' ptx : (forall r, ract_of g' r = ract_of g r) ->
  forall f txt, trace_forest g' ptx f txt = trace_forest g ptx f txt.
Proof.
  intros Hact.
  apply (forest_ind2 (fun t => forall txt, trace_dt g' ptx t txt = trace_dt g ptx t txt)
                     (fun f => forall txt, trace_forest g' ptx f txt = trace_forest g ptx f txt)).
  - intros r b e kids IH txt. rewrite !RuntimeProofs.trace_dt_node, IH.
    destruct (trace_forest g ptx kids txt) as [evs t1]. destruct (r =? ptx); [reflexivity|].
    pose proof (Hact r) as E. unfold ract_of in E.
    destruct (nth_error g' r) as [[?|k|]|], (nth_error g r) as [[?|k'|]|]; try discriminate; try reflexivity.
    inv E. reflexivity.
  - reflexivity.
  - intros t f IHt IHf txt. cbn [trace_forest]. rewrite IHt. destruct (trace_dt g ptx t txt) as [e1 t1]. rewrite IHf. reflexivity.
Qed.

(** the -switch pass rewrites bodies and leaves every other slot as it is *)
Lemma optimize_acts g r : ract_of (optimize g) r = ract_of g r.
Proof.
  unfold optimize. destruct (fs_table g) as [T st]. destruct (negb st); [reflexivity|].
  unfold ract_of. generalize (fst (Analyses.count_rules g)) as reached, 0 as s. revert r.
  induction g as [|rb l IH]; intros r reached s; [destruct r; reflexivity|].
  destruct r; cbn [length seq combine map nth_error fst snd]; [|apply IH].
  destruct rb; [destruct (nth s reached false)|..]; reflexivity.
Qed.

Section Shipped.
Variable nm : list rune -> nat.
Variable ak : list rune -> nat.
Variable penv : nat -> nat -> bool.

(** the calls Execute() makes over a token sequence *)
Definition calls_of_tokens (g : grammar) (ptx : nat) (buf : list rune) (ts : list tok) : list call :=
  calls (map (fun kt : nat * (nat * nat) => (fst kt, sub buf (snd kt))) (execute g ptx ts (0, 0))).

(** what the default tree derives from its first rule, the shipped tree derives: same verdict, same forest *)
Lemma shipped_parse buf n x : valid_buf buf ->
  peg_ev pegpeg_d pegpeg_d_ptx buf penv n (EName pr_Grammar) 0 = Some x ->
  exists m evs', peg_parse pegpeg_is pegpeg_is_ptx buf penv m 0 = Some (fst x, evs').
Proof.
  intros Hvb Hev. destruct C17_pegpeg_wellformed as (Hwf & _). destruct C17_switch_tree_is_optimize as (Eopt & Hopt).
  rewrite <- Eopt.
  exact (optimize_sound pegpeg_d (nul_table pegpeg_d) (rank_table pegpeg_d (nul_table pegpeg_d)) Hwf Hopt
           pegpeg_d_ptx buf penv Hvb 0 n x Hev).
Qed.

(** an accepted text: Parse() succeeds and Execute() makes the calls of the derivation *)
Lemma accepted_shipped buf memo inline st0 n p f evs :
  peg_ev pegpeg_d pegpeg_d_ptx buf penv n (EName pr_Grammar) 0 = Some (Succ p f, evs) ->
  good_buf buf -> valid_buf buf -> slot_ok pegpeg_is inline 0 ->
  exists m st', machine pegpeg_is pegpeg_is_ptx buf penv memo inline m 0 st0 = Some (Ret true st') /\
    calls_of_tokens pegpeg_is pegpeg_is_ptx buf (live st') = calls_of_forest buf f.
Proof.
  intros Hev Hgb Hvb Hslot. destruct (shipped_parse buf n _ Hvb Hev) as (m & evs' & Hp').
  destruct C17_pegpeg_wellformed as (_ & _ & _ & _ & Hg2 & Hs2).
  destruct (c04_execute pegpeg_is pegpeg_is_ptx buf penv (good_grammar_b_ok _ Hg2) Hgb (good_switches_b_ok _ Hs2)
              memo inline m 0 st0 _ _ _ Hslot Hp') as (st' & Hm & Hex).
  exists m, st'. split; [exact Hm|]. unfold calls_of_tokens. rewrite Hex.
  rewrite (trace_forest_acts pegpeg_d pegpeg_is) by (destruct C17_switch_tree_is_optimize as (<- & _); apply optimize_acts).
  reflexivity.
Qed.

Theorem reader_file_shipped f memo inline st0 :
  file_ok f -> good_buf (fshow f) -> valid_buf (fshow f) -> slot_ok pegpeg_is inline 0 ->
  exists n st' nodes,
    machine pegpeg_is pegpeg_is_ptx (fshow f) penv memo inline n 0 st0 = Some (Ret true st') /\
    calls_of_tokens pegpeg_is pegpeg_is_ptx (fshow f) (live st') = fcalls f /\
    frun nm ak (fcalls f) finit = Some {| back := nodes; pend := None; stk := []; pegn := None |} /\
    file_nodes nm ak f = Some nodes.
Proof.
  intros Hok Hgb Hvb Hslot.
  destruct (reader_file nm ak penv f Hok) as (n & fo & evs & nodes & Hev & Hcalls & Hrun & Hnodes).
  destruct (accepted_shipped _ memo inline st0 n _ fo evs Hev Hgb Hvb Hslot) as (m & st' & Hm & Hex).
  exists m, st', nodes. rewrite Hex. auto.
Qed.

(** a text the rule tree refuses is refused by the shipped parser: Parse() reports an error *)
Theorem rejected_shipped buf memo inline st0 :
  ko pegpeg_d pegpeg_d_ptx buf penv (EName pr_Grammar) 0 -> good_buf buf -> valid_buf buf -> slot_ok pegpeg_is inline 0 ->
  exists n st', machine pegpeg_is pegpeg_is_ptx buf penv memo inline n 0 st0 = Some (Ret false st').
Proof.
  intros (n & evs & Hev) Hgb Hvb Hslot. destruct (shipped_parse buf n _ Hvb Hev) as (m & evs' & Hp').
  destruct C17_pegpeg_wellformed as (_ & _ & _ & _ & Hg2 & Hs2).
  exists m. exact (c01_verdict_prefix pegpeg_is pegpeg_is_ptx buf penv (good_grammar_b_ok _ Hg2) Hgb (good_switches_b_ok _ Hs2)
                     memo inline m 0 st0 _ Hslot Hp').
Qed.

(** Every text.  Whatever runes the shipped parser is given (code points, none of them the end symbol), it
    terminates, and either Parse() reports an error or the calls Execute() makes over its tokens go through the
    builder - no empty-stack pop, no misused node - and leave a package name, the parser type with its state, at
    least one rule and nothing half-built: never a crash, never an empty parser.
    (totality of the reference semantics on peg.peg's well-formed tree, then rejected_shipped or, for an accepted
    text, optimize_sound + the machine theorems + Reader/Safe.v's accepted_text_builds.) *)
Theorem every_text_shipped buf memo inline st0 :
  good_buf buf -> valid_buf buf -> slot_ok pegpeg_is inline 0 ->
  exists n b st', machine pegpeg_is pegpeg_is_ptx buf penv memo inline n 0 st0 = Some (Ret b st') /\
    (b = true ->
     exists s', frun nm ak (calls_of_tokens pegpeg_is pegpeg_is_ptx buf (live st')) finit = Some s' /\
       stk s' = [] /\ pend s' = None /\ pegn s' = None /\
       (exists pk, In (NPackage pk) (back s')) /\ (exists name st, In (NPeg name st) (back s')) /\
       (exists name e, In (NRule name e) (back s'))).
Proof.
  intros Hgb Hvb Hslot. destruct C17_pegpeg_wellformed as (Hwf & _).
  destruct (c01_total pegpeg_d pegpeg_d_ptx buf penv _ _ 0 _ Hwf eq_refl ltac:(discriminate)) as (n & [[|p f] evs] & Hp).
  - (* the text is not a grammar *)
    destruct (rejected_shipped buf memo inline st0) as (m & st' & Hm); try assumption.
    { exists n, evs. exact Hp. }
    exists m, false, st'. split; [exact Hm|discriminate].
  - (* accepted *)
    destruct (accepted_shipped buf memo inline st0 n p f evs Hp Hgb Hvb Hslot) as (m & st' & Hm & Hex).
    exists m, true, st'. split; [exact Hm|]. intros _. rewrite Hex.
    exact (accepted_text_builds nm ak buf penv n p f evs Hp).
Qed.

End Shipped.
