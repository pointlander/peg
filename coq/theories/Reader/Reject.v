(** Rejection: texts that peg.peg's own rule tree refuses.  The first family is a well-formed file followed by
    something that is neither layout nor the start of anything.  (A rule ends only before another rule or at the
    end of the text: Definition <- ... &(Identifier LeftArrow / !.).)  The rule Grammar is read up to a point and
    shown to fail on what it has still to read: [after_imports], [after_type] and [head_then]
    carry the failure back over the head of the file, and [grammar_rejects_trailing_gen] states the result for
    any trailing text in [Ends].  On this chain stand the other theorems [grammar_rejects_...]: a character that
    starts nothing, no rule, no package clause, a dangling & or !, and - through [kos_until], a sequence fails
    when the item it must reach fails everywhere further right - a quote, a bracket or the parser's state
    opened and never closed. *)
From PegV Require Import Base.Tac Base.ListX Spec.Syntax Spec.Peg Proofs.PegRel Model.Calls Generated.PegPeg
  Reader.Base Reader.Lex Reader.Chars Reader.Lits Reader.Expr Reader.File Spec.WF Proofs.Forest Proofs.Total.
Local Open Scope Z_scope.

Section Reject.
Variable buf : list rune.
Variable penv : nat -> nat -> bool.
Notation At := (At buf).
Notation C := (C buf penv).
Notation Cs := (Cs buf penv).
Notation ko := (ko pegpeg_d pegpeg_d_ptx buf penv).
Notation ok := (ok pegpeg_d pegpeg_d_ptx buf penv).
Notation kos := (kos pegpeg_d pegpeg_d_ptx buf penv).
Notation kwe l := (ESeq (map EChar l)).

(** What may stand behind the last rule of a text without being read as part of it, and is not the end of the text:
    it cannot continue the rule's expression, and the look-ahead that ends a rule fails on it. *)
Definition Ends (rest : list rune) : Prop :=
  stop rest /\ forall q, At q rest ->
    fol buf penv q rest /\ ko (EName pr_Prefix) q /\ ko (EName pr_Slash) q /\ head_ne 47 rest /\
    not_icont_head rest /\ ko (EAnd (EAlt [ESeq [EName pr_Identifier; EName pr_LeftArrow]; ENot EDot])) q.

Lemma notin_b (c : Z) l : forallb (fun k => negb (c =? k)) l = true -> ~ In c l.
Proof. intros H I. apply (proj1 (forallb_forall _ _) H) in I. rewrite Z.eqb_refl in I. discriminate I. Qed.

Lemma identifier_ko_at q c s : At q (c :: s) -> is_istart c = false -> ko (EName pr_Identifier) q.
Proof. intros Hat H. eapply identifier_ko; [exact Hat|intros ? ? E; inv E; exact H]. Qed.

(** Every family of such texts below is an instance of this one: a character that is neither layout nor an operator
    nor part of a name, at which no Prefix can be read. *)
Lemma ends_of_prefix_ko c s :
  ~ In c [32; 9; 10; 13; 35; 47; 8592; 63; 42; 43] -> is_icont c = false -> (c = 60 -> head_ne 45 s) ->
  (forall q, At q (c :: s) -> ko (EName pr_Prefix) q) -> Ends (c :: s).
Proof.
  intros N Hic H60 HP. repeat (apply not_in_cons in N; destruct N as [? N]).
  assert (His : is_istart c = false) by (apply orb_false_iff in Hic; apply Hic).
  split; [apply stop_char; assumption|]. intros q Hat.
  pose proof (identifier_ko_at q c s Hat His) as KI.
  split; [apply fol_char; try assumption; intros E; contradiction|]. split; [exact (HP q Hat)|].
  split; [eapply tok_ko; [lookup|exact Hat|intros ? ? E; inv E; assumption]|].
  split; [intros ? ? E; inv E; assumption|]. split; [intros ? ? E; inv E; exact Hic|]. korun.
Qed.

Lemma junk_ends c m : junk_head c = true -> Ends (c :: m).
Proof.
  unfold junk_head. intros H. apply negb_true_iff in H. repeat (apply orb_false_iff in H; destruct H as [H ?]).
  assert (Hp : pstart c = false) by assumption.
  apply ends_of_prefix_ko; [cbn [In]; lia|assumption|intros ->; discriminate Hp|].
  intros q Hat. eapply prefix_ko; [exact Hat|intros ? ? E; inv E; exact Hp].
Qed.

Lemma def_ko d rest p : def_ok d -> Ends rest -> At p (dshow d ++ rest) -> ko (EName pr_Definition) p.
Proof.
  intros Hd [Hstl Hj] Hat. atn Hat as A. destruct (Hj _ A) as (F & Kp & Ks & H47 & Hnic & Kand).
  destruct (def_items buf penv d rest p _ (0%nat, 0%nat) Hd Hstl (fun _ => Hnic) Hat A F Kp Ks H47) as [t1 S].
  ko_into_rule. apply ko_seq. apply kos_app_Cs with (1 := S). apply kos_head. exact Kand.
Qed.

Lemma def_before_defs d d' l rest p : defs_ok (d :: d' :: l) -> stop rest -> At p (dshow d ++ flat_map dshow (d' :: l) ++ rest) ->
  exists f, ok (EName pr_Definition) p (p + length (dshow d))%nat f.
Proof.
  intros (Hd & Hg & Hl) Hr Hat.
  assert (Hg' : glue (d_body d) = true -> not_icont_head (flat_map dshow (d' :: l) ++ rest)).
  { intros E. rewrite Hg in E; discriminate. }
  destruct (def_parse buf penv d _ p (0%nat, 0%nat) Hd (defs_start d' l rest Hl Hr) Hg' Hat) as [t1 H1]. exact (C_ok _ _ _ _ _ _ _ _ H1).
Qed.

(** the rules of a file followed by such a text: the repetition stops before the last of them *)
Lemma defs_junk rest : Ends rest -> forall l d p, defs_ok (d :: l) -> At p (dshow d ++ flat_map dshow l ++ rest) ->
  exists p' f x s0, ok (EStar (EName pr_Definition)) p p' f /\ At p' (x :: s0).
Proof.
  intros Hj. induction l as [|d' l IH]; intros d p Hok Hat.
  - (* the last rule is not followed by a rule or the end: it is not read *)
    cbn [flat_map app defs_ok] in *. destruct Hok as (Hd & _). pose proof (def_ko d rest p Hd Hj Hat) as K.
    destruct Hd as (Hid & _). destruct (ident_head _ Hid) as (x & r & E & _).
    exists p, [], x, (r ++ d_s1 d ++ arrow_text (d_uni d) ++ d_s2 d ++ show (d_body d) ++ rest).
    split; [apply ok_star_nil; exact K|]. unfold dshow in Hat. rewrite <- !app_assoc in Hat. rewrite E in Hat. exact Hat.
  - destruct (def_before_defs d d' l rest p Hok (proj1 Hj) Hat) as [f1 O1]. atn Hat as A1.
    cbn [flat_map] in A1. rewrite <- app_assoc in A1.
    destruct (IH d' _ (proj2 (proj2 Hok)) A1) as (p' & f2 & x & s0 & O2 & A2).
    exists p', (f1 ++ f2), x, s0. split; [eapply ok_star_cons; eassumption|exact A2].
Qed.

Lemma seg_defs_ko d defs rest p : defs_ok (d :: defs) -> Ends rest -> At p (flat_map dshow (d :: defs) ++ rest) ->
  kos [EPlus (EName pr_Definition); EName pr_EndOfFile] p.
Proof.
  intros Hok Hj Hat. cbn [flat_map] in Hat. rewrite <- app_assoc in Hat. destruct defs as [|d' l'].
  - apply kos_head. apply ko_plus. exact (def_ko d rest p (proj1 Hok) Hj Hat).
  - destruct (def_before_defs d d' l' rest p Hok (proj1 Hj) Hat) as [f1 O1]. atn Hat as A1.
    cbn [flat_map] in A1. rewrite <- app_assoc in A1.
    destruct (defs_junk rest Hj l' d' _ (proj2 (proj2 Hok)) A1) as (p' & f2 & x & s0 & O2 & A2).
    eapply kos_tail; [eapply ok_plus; eassumption|]. apply kos_head. korun.
Qed.

(** The rule Grammar, read up to some point: if what it has still to read fails there, the text is refused. *)
Notation defs_seg := [EPlus (EName pr_Definition); EName pr_EndOfFile].
Notation from_Peg := ([kwe kw_Peg; EName pr_Spacing; EName pr_Action; act 13] ++ defs_seg).
Notation from_type := ([kwe kw_type; EName pr_MustSpacing; EName pr_Identifier; act 9] ++ from_Peg).

Lemma grammar_body : nth_error pegpeg_d pr_Grammar = Some (RBody (ESeq (
  [EName pr_Header; kwe kw_package; EName pr_MustSpacing; EName pr_Identifier; act 4] ++ EStar (EName pr_Import) :: from_type))).
Proof. vm_compute. reflexivity. Qed.

Lemma after_imports hdr spkg pkg s1 imps rest :
  header_ok hdr [112] -> lay spkg -> spkg <> [] -> ident_ok pkg = true -> lay s1 -> s1 <> [] -> Forall imp_ok imps -> stop rest ->
  buf = flat_map hshow hdr ++ kw_package ++ spkg ++ pkg ++ s1 ++ flat_map impshow imps ++ rest ->
  (forall q, At q rest -> ko (EName pr_Import) q /\ kos from_type q) -> ko (EName pr_Grammar) 0.
Proof.
  intros Hh Hsp Hspn Hpk Hs1 Hs1n Himp Hst Ebuf K.
  assert (Hat : At 0 (flat_map hshow hdr ++ kw_package ++ spkg ++ pkg ++ s1 ++ flat_map impshow imps ++ rest)) by (rewrite <- Ebuf; apply At_start).
  destruct (seg_head buf penv hdr spkg pkg s1 _ 0%nat (0%nat, 0%nat) Hh Hsp Hspn Hpk Hs1 Hs1n (imports_stop imps rest Hst) Hat) as (p1 & t1 & S1 & A1).
  destruct (K _ (At_app _ _ _ _ A1)) as [Kimp Kt].
  destruct (imports_star buf penv imps rest p1 t1 Himp Hst Kimp A1) as [t2 S2].
  eapply ko_name; [exact grammar_body|]. apply ko_seq. eapply kos_app_Cs; [exact S1|]. exact (kos_tail_C _ _ _ _ _ _ _ _ _ S2 Kt).
Qed.

(** the text of a file up to and including the name of the parser type *)
Definition pre_text (f : cfile) : list rune :=
  flat_map hshow (f_header f) ++ kw_package ++ f_s_pkg f ++ f_pkg f ++ f_s1 f ++ flat_map impshow (f_imports f) ++
  kw_type ++ f_s_type f ++ f_peg f ++ f_s2 f.

Lemma after_type f rest : head_ok f -> stop rest -> buf = pre_text f ++ rest ->
  (forall q, At q rest -> kos from_Peg q) -> ko (EName pr_Grammar) 0.
Proof.
  intros (Hh & Hsp & Hspn & Hpk & Hs1 & Hs1n & Himp & Hst & Hstn & Hpeg & Hs2 & Hs2n & _) Hrest Ebuf K.
  apply (after_imports (f_header f) (f_s_pkg f) (f_pkg f) (f_s1 f) (f_imports f) (kw_type ++ f_s_type f ++ f_peg f ++ f_s2 f ++ rest));
    try assumption.
  - exact (pstart_stop 116 _ eq_refl).
  - rewrite Ebuf. unfold pre_text. rewrite <- !app_assoc. reflexivity.
  - intros q A2. split; [exact (import_ko buf penv _ _ A2 ltac:(intros ? ? E; inv E; discriminate))|].
    destruct (seg_type buf penv _ _ _ rest q (0%nat, 0%nat) Hst Hstn Hpeg Hs2 Hs2n Hrest A2) as (p3 & t3 & S3 & A3).
    eapply kos_app_Cs; [exact S3|]. exact (K _ A3).
Qed.

Lemma head_then f J : head_ok f -> stop J -> buf = head_text f ++ J ->
  (forall q, At q J -> kos defs_seg q) -> ko (EName pr_Grammar) 0.
Proof.
  intros Hf HJ Ebuf K. pose proof Hf as (_ & _ & _ & _ & _ & _ & _ & _ & _ & _ & _ & _ & Hs3 & Hbal & Hs4).
  apply (after_type f (kw_Peg ++ f_s3 f ++ 123 :: f_state f ++ 125 :: f_s4 f ++ J) Hf).
  - exact (pstart_stop 80 _ eq_refl).
  - rewrite Ebuf. unfold head_text, pre_text. repeat (rewrite <- ?app_assoc, <- ?app_comm_cons; cbn [app]). reflexivity.
  - intros q A3.
    destruct (seg_state buf penv _ _ _ J q (0%nat, 0%nat) Hs3 Hbal Hs4 HJ A3) as (p4 & t4 & S4 & A4).
    eapply kos_app_Cs; [exact S4|]. exact (K _ A4).
Qed.

Lemma file_ok_head f : file_ok f -> head_ok f.
Proof. intros (Hh & Hsp & Hspn & Hpk & Hs1 & Hs1n & Himp & Hst & Hstn & Hpeg & Hs2 & Hs2n & Hs3 & Hbal & Hs4 & _). repeat split; assumption. Qed.
Lemma fshow_head f : fshow f = head_text f ++ flat_map dshow (f_defs f).
Proof. unfold fshow, head_text. repeat (rewrite <- ?app_assoc, <- ?app_comm_cons; cbn [app]). reflexivity. Qed.

(** A well-formed file followed by a text that cannot continue its last rule, on which the look-ahead that ends a rule
    fails, is refused: the rule Grammar fails on it. *)
Theorem grammar_rejects_trailing_gen f rest : file_ok f -> Ends rest -> buf = fshow f ++ rest -> ko (EName pr_Grammar) 0.
Proof.
  intros Hf Hj Ebuf. pose proof Hf as (_ & _ & _ & _ & _ & _ & _ & _ & _ & _ & _ & _ & _ & _ & _ & Hdn & Hdefs).
  destruct (f_defs f) as [|d defs] eqn:Ed; [congruence|].
  apply (head_then f (flat_map dshow (d :: defs) ++ rest) (file_ok_head f Hf)).
  - apply defs_stop; [exact Hdefs|exact (proj1 Hj)].
  - rewrite Ebuf, fshow_head, Ed, <- app_assoc. reflexivity.
  - intros q Hq. exact (seg_defs_ko d defs rest q Hdefs Hj Hq).
Qed.
(** ... in particular one that begins with a character that starts nothing *)
Theorem grammar_rejects_trailing f c m : file_ok f -> junk_head c = true -> buf = fshow f ++ c :: m ->
  ko (EName pr_Grammar) 0.
Proof. intros Hf Hj Ebuf. exact (grammar_rejects_trailing_gen f (c :: m) Hf (junk_ends c m Hj) Ebuf). Qed.

(** A text with no rule behind  type T Peg { .. }  is refused: whatever follows the head, if it does not start with a
    letter or an underscore there is no rule to read (this includes the text that stops after the head). *)
Theorem grammar_rejects_no_rules f J : head_ok f -> stop J -> (forall c r, J = c :: r -> is_istart c = false) ->
  buf = head_text f ++ J -> ko (EName pr_Grammar) 0.
Proof.
  intros Hf HJ Hn Ebuf. apply (head_then f J Hf HJ Ebuf). intros q Hq.
  assert (K : ko (EName pr_Identifier) q) by (eapply identifier_ko; [exact Hq|exact Hn]).
  apply kos_head. apply ko_plus. korun.
Qed.

(** A quote or a bracket that is never closed.
    However far the characters behind the opening one are read, a sequence that must then find the closing one
    fails when there is none in the rest of the text.  Every parsing expression of the rule tree has a result
    (Proofs/Total.v), so the expressions before the closing one either fail or end somewhere further right. *)
Lemma pegpeg_wf : wf_b pegpeg_d (nul_table pegpeg_d) (rank_table pegpeg_d (nul_table pegpeg_d)) = true.
Proof. vm_compute. reflexivity. Qed.

Lemma kos_until x post : forall pre p, (p <= length buf)%nat ->
  forallb (local_ok pegpeg_d (nul_table pegpeg_d)) pre = true ->
  (forall p', (p <= p')%nat -> ko x p') -> kos (pre ++ x :: post) p.
Proof.
  induction pre as [|e pre IH]; intros p Hp Hl Hno; cbn [app].
  - apply kos_head. apply Hno. lia.
  - cbn [forallb] in Hl. apply andb_true_iff in Hl as [He Hl].
    destruct (total_at pegpeg_d pegpeg_d_ptx buf penv _ _ pegpeg_wf e p Hp He)
      as (n & [[|p1 f1] evs] & Hr).
    + apply kos_head. exists n, evs. exact Hr.
    + destruct (ev_ok pegpeg_d pegpeg_d_ptx buf penv n e p _ Hp Hr) as (_ & W & B). cbn [fst] in *.
      pose proof (wf_forest_le _ _ _ W) as Lp.
      eapply kos_tail; [exists n, evs; exact Hr|]. apply IH; [exact B|exact Hl|]. intros p' Hp'. apply Hno. lia.
Qed.
(** the same with the item given by its place in the sequence *)
Lemma kos_until_nth x es i p : nth_error es i = Some x ->
  forallb (local_ok pegpeg_d (nul_table pegpeg_d)) (firstn i es) = true ->
  (p <= length buf)%nat -> (forall p', (p <= p')%nat -> ko x p') -> kos es p.
Proof.
  intros Hx Hl Hp Hno. apply nth_error_split in Hx as (pre & post & -> & <-). rewrite firstn_app_exact in Hl.
  exact (kos_until x post pre p Hp Hl Hno).
Qed.
Lemma ko_char_nowhere c p : (forall p', (p <= p')%nat -> nth_error buf p' <> Some c) -> forall p', (p <= p')%nat -> ko (EChar c) p'.
Proof. intros Hno p' Hp'. apply ko_char. intros c' E Ec. subst c'. exact (Hno p' Hp' E). Qed.
Lemma kos_until_char c post pre p : (p <= length buf)%nat ->
  forallb (local_ok pegpeg_d (nul_table pegpeg_d)) pre = true ->
  (forall p', (p <= p')%nat -> nth_error buf p' <> Some c) -> kos (pre ++ EChar c :: post) p.
Proof. intros Hp Hl Hno. apply kos_until; [exact Hp|exact Hl|apply ko_char_nowhere; exact Hno]. Qed.

Lemma At_nth s : forall p k, At p s -> nth_error buf (p + k)%nat = nth_error s k.
Proof.
  induction s as [|x s IH]; intros p k H.
  - pose proof (At_nil _ _ H) as E. apply nth_error_None in E. destruct k; cbn [nth_error]; apply nth_error_None; lia.
  - destruct k as [|k]; [rewrite Nat.add_0_r; exact (At_head _ _ _ _ H)|].
    replace (p + S k)%nat with (S p + k)%nat by lia. cbn [nth_error]. apply IH. exact (At_tail _ _ _ _ H).
Qed.
Lemma no_char_after q c0 c s : At q (c0 :: s) -> ~ In c s -> forall p', (S q <= p')%nat -> nth_error buf p' <> Some c.
Proof.
  intros Hat Hn p' Hp' Hc. pose proof (At_nth _ _ (p' - S q) (At_tail _ _ _ _ Hat)) as E.
  replace (S q + (p' - S q))%nat with p' in E by lia. rewrite Hc in E. apply Hn. eapply nth_error_In. symmetry. exact E.
Qed.

(** an opening character [o] with no [c] anywhere behind it: a sequence whose [i]-th item begins with [c], behind
    items that always have a result, fails *)
Lemma kos_unclosed q o c s es i x : At q (o :: s) -> o <> c -> ~ In c s -> nth_error es i = Some x ->
  forallb (local_ok pegpeg_d (nul_table pegpeg_d)) (firstn i es) = true -> (forall p', ko (EChar c) p' -> ko x p') -> kos es q.
Proof.
  intros Hat N Hn Hx Hl Hk. apply (kos_until_nth x es i q Hx Hl (proj1 Hat)).
  assert (Hno : forall p', (q <= p')%nat -> nth_error buf p' <> Some c).
  { intros p' Hp'. destruct (Nat.eq_dec p' q) as [->|Ne]; [rewrite (At_head _ _ _ _ Hat); congruence|apply (no_char_after q o c s Hat Hn); lia]. }
  intros p' Hp'. apply Hk. exact (ko_char_nowhere c q Hno p' Hp').
Qed.

(** a quoted item opened by [c0], whose closing [c] is nowhere behind it if [c0] is the [c] that opens it *)
Lemma quoted_ko q c c0 s es i : At q (c0 :: s) -> (c0 = c -> ~ In c s) -> nth_error es i = Some (EChar c) ->
  forallb (local_ok pegpeg_d (nul_table pegpeg_d)) (firstn i es) = true -> ko (ESeq (EChar c :: es)) q.
Proof.
  intros Hat Hn Hx Hl. apply ko_seq. destruct (Z.eq_dec c0 c) as [->|N].
  - eapply kos_tail; [apply ok_char; exact (At_head _ _ _ _ Hat)|].
    apply (kos_until_nth _ es i _ Hx Hl); [|exact (ko_char_nowhere c _ (no_char_after q c c s Hat (Hn eq_refl)))].
    apply Nat.le_succ_l, nth_error_Some. rewrite (At_head _ _ _ _ Hat). discriminate.
  - apply kos_head. eapply ko_char_at; [exact Hat|]. intros c' s' E. inv E. exact N.
Qed.
Lemma literal_unclosed_ko q c s : At q (c :: s) -> ~ In c s -> ko (EName pr_Literal) q.
Proof.
  intros Hat Hn. ko_into_rule. apply ko_alt.
  apply koa_cons; [|apply koa_cons; [|apply koa_nil]]; (apply (quoted_ko q _ c s _ 2 Hat); [intros <-; exact Hn|lookup|lookup]).
Qed.
Lemma quote_unclosed_ko q c s : c = 39 \/ c = 34 -> At q (c :: s) -> ~ In c s -> ko (EName pr_Primary) q.
Proof.
  intros Hc Hat Hn. pose proof (literal_unclosed_ko q c s Hat Hn) as KL.
  pose proof (identifier_ko_at q c s Hat ltac:(destruct Hc as [-> | ->]; reflexivity)) as KI.
  korun.
Qed.

Lemma paren_unclosed_ko q s : At q (40 :: s) -> ~ In 41 s -> ko (EName pr_Primary) q.
Proof.
  intros Hat Hn.
  assert (K : ko (ESeq [EName pr_Open; EName pr_Expression; EName pr_Close]) q).
  { apply ko_seq. apply (kos_unclosed q 40 41 s _ 2 (EName pr_Close) Hat); [discriminate|exact Hn|lookup|lookup|].
    intros p' K. ko_into_rule. apply ko_seq. apply kos_head. exact K. }
  pose proof (identifier_ko_at q 40 s Hat eq_refl) as KI.
  korun.
Qed.
Lemma angle_unclosed_ko q s : At q (60 :: s) -> ~ In 62 s -> ko (EName pr_Primary) q.
Proof.
  intros Hat Hn.
  let b := eval vm_compute in (nth_error pegpeg_d pr_Primary) in
  lazymatch b with Some (RBody (EAlt [_; _; _; _; _; _; ?capture])) => assert (K : ko capture q) end.
  { apply ko_seq. apply (kos_unclosed q 60 62 s _ 2 (EName pr_End) Hat); [discriminate|exact Hn|lookup|lookup|].
    intros p' K. ko_into_rule. apply ko_seq. apply kos_head. exact K. }
  pose proof (identifier_ko_at q 60 s Hat eq_refl) as KI.
  korun.
Qed.
Lemma action_unclosed_ko q s : At q (123 :: s) -> ~ In 125 s -> ko (EName pr_Action) q.
Proof.
  intros Hat Hn. ko_into_rule. apply ko_seq.
  apply (kos_unclosed q 123 125 s _ 2 (EChar 125) Hat); [discriminate|exact Hn|lookup|lookup|auto].
Qed.
Lemma brace_unclosed_ko q s : At q (123 :: s) -> ~ In 125 s -> ko (EName pr_Primary) q.
Proof.
  intros Hat Hn. pose proof (action_unclosed_ko q s Hat Hn) as KA.
  pose proof (identifier_ko_at q 123 s Hat eq_refl) as KI.
  korun.
Qed.
Lemma bracket_unclosed_ko q s : At q (91 :: s) -> ~ In 93 s -> ko (EName pr_Primary) q.
Proof.
  intros Hat Hn.
  assert (KK : ko (EName pr_Class) q).
  { (* "[[" .. "]]" and "[" .. "]" *)
    ko_into_rule. apply ko_seq. apply kos_head. apply ko_alt. apply koa_cons; [|apply koa_cons; [|apply koa_nil]]; apply ko_seq.
    - apply (kos_unclosed q 91 93 s _ 3 (ESeq [EChar 93; EChar 93]) Hat); [discriminate|exact Hn|lookup|lookup|].
      intros p' K. apply ko_seq. apply kos_head. exact K.
    - apply (kos_unclosed q 91 93 s _ 2 (EChar 93) Hat); [discriminate|exact Hn|lookup|lookup|auto]. }
  pose proof (identifier_ko_at q 91 s Hat eq_refl) as KI.
  korun.
Qed.

(** where no Primary can be read and no & or ! stands, no Prefix can be read *)
Lemma ends_of_primary_ko c s :
  ~ In c [32; 9; 10; 13; 35; 47; 8592; 63; 42; 43] -> c <> 38 -> c <> 33 -> is_icont c = false -> (c = 60 -> head_ne 45 s) ->
  (forall q, At q (c :: s) -> ko (EName pr_Primary) q) -> Ends (c :: s).
Proof.
  intros N N38 N33 Hic H60 HP. apply ends_of_prefix_ko; [exact N|exact Hic|exact H60|].
  intros q Hat. pose proof (HP q Hat) as KP. assert (KS : ko (EName pr_Suffix) q) by korun. korun.
Qed.

(** A well-formed file behind which a literal is opened and never closed is refused. *)
Theorem grammar_rejects_unclosed_quote f c s : file_ok f -> c = 39 \/ c = 34 -> ~ In c s -> buf = fshow f ++ c :: s ->
  ko (EName pr_Grammar) 0.
Proof.
  intros Hf Hc Hn Ebuf. apply (grammar_rejects_trailing_gen f (c :: s) Hf); [|exact Ebuf].
  apply ends_of_primary_ko; [| | | | |intros q Hq; exact (quote_unclosed_ko q c s Hc Hq Hn)];
    destruct Hc as [-> | ->]; try discriminate; try reflexivity; apply notin_b; reflexivity.
Qed.

(** A well-formed file behind which a group, a capture, an action or a class is opened and never closed is refused. *)
Theorem grammar_rejects_unclosed_bracket f o s : file_ok f ->
  (o = 40 /\ ~ In 41 s) \/ (o = 60 /\ ~ In 62 s /\ head_ne 45 s) \/ (o = 123 /\ ~ In 125 s) \/ (o = 91 /\ ~ In 93 s) ->
  buf = fshow f ++ o :: s -> ko (EName pr_Grammar) 0.
Proof.
  intros Hf Ho Ebuf. apply (grammar_rejects_trailing_gen f (o :: s) Hf); [|exact Ebuf].
  destruct Ho as [[-> Hn]|[[-> [Hn H45]]|[[-> Hn]|[-> Hn]]]];
    (apply ends_of_primary_ko; [apply notin_b; reflexivity|discriminate|discriminate|reflexivity|try (intros E; discriminate E); intros _; exact H45|]).
  - intros q Hq. exact (paren_unclosed_ko q s Hq Hn).
  - intros q Hq. exact (angle_unclosed_ko q s Hq Hn).
  - intros q Hq. exact (brace_unclosed_ko q s Hq Hn).
  - intros q Hq. exact (bracket_unclosed_ko q s Hq Hn).
Qed.

Lemma dangling_prefix_ko q o l : o = 38 \/ o = 33 -> lay l -> At q (o :: l) -> ko (EName pr_Prefix) q.
Proof.
  intros Ho Hl Hat. at1 Hat as A1. rewrite <- (app_nil_r l) in A1.
  pose proof (fun t => spacing_ok buf penv l [] (S q) t Hl I A1) as Hsp. atn A1 as Ae.
  (* at the end of the text nothing starts *)
  assert (KIe : ko (EName pr_Identifier) (S q + length l)) by (eapply identifier_ko; [exact Ae|intros ? ? E; discriminate E]).
  assert (KAe : ko (EName pr_Action) (S q + length l)) by korun.
  assert (KPe : ko (EName pr_Primary) (S q + length l)) by korun.
  assert (KSe : ko (EName pr_Suffix) (S q + length l)) by korun.
  pose proof (identifier_ko_at q o l Hat ltac:(destruct Ho as [-> | ->]; reflexivity)) as KI.
  assert (KP : ko (EName pr_Primary) q) by korun.
  assert (KS : ko (EName pr_Suffix) q) by korun.
  destruct Ho as [-> | ->]; korun.
Qed.

(** A well-formed file followed by an & or an ! with nothing behind it but blanks and comments is refused. *)
Theorem grammar_rejects_dangling_prefix f o l : file_ok f -> o = 38 \/ o = 33 -> lay l -> buf = fshow f ++ o :: l ->
  ko (EName pr_Grammar) 0.
Proof.
  intros Hf Ho Hl Ebuf. apply (grammar_rejects_trailing_gen f (o :: l) Hf); [|exact Ebuf].
  apply ends_of_prefix_ko; [| | |intros q Hq; exact (dangling_prefix_ko q o l Ho Hl Hq)];
    destruct Ho as [-> | ->]; try discriminate; try reflexivity; apply notin_b; reflexivity.
Qed.

Lemma kw_ok l : forall p s t, At p (l ++ s) -> Cs (map EChar l) p (p + length l)%nat [] t t.
Proof.
  induction l as [|k l IH]; intros p s t Hat; cbn [map length app] in *.
  - rewrite Nat.add_0_r. apply Cs_nil.
  - replace (p + S (length l))%nat with (S p + length l)%nat by lia.
    exact (Cs_cons _ _ _ _ _ _ _ [] [] _ _ _ (C_char _ _ _ _ t (At_head _ _ _ _ Hat)) (IH _ s t (At_tail _ _ _ _ Hat))).
Qed.
Lemma kw_ko l : forall p s0, At p s0 -> (forall r, s0 <> l ++ r) -> kos (map EChar l) p.
Proof.
  induction l as [|k l IH]; intros p s0 Hat N; [exfalso; apply (N s0); reflexivity|]. cbn [map].
  destruct s0 as [|c s']; [apply kos_head; korun|].
  destruct (Z.eq_dec c k) as [->|Nc].
  - at1 Hat as A1. eapply (kos_tail_C _ _ _ _ _ _ _ (0%nat, 0%nat)); [crun|].
    apply (IH _ s' A1). intros r E. apply (N r). cbn [app]. rewrite E. reflexivity.
  - apply kos_head. korun.
Qed.

(** A text that stops inside the parser's state: "Peg {" opened and never closed. *)
Theorem grammar_rejects_unclosed_state f T : head_ok f -> ~ In 125 T -> buf = pre_text f ++ kw_Peg ++ f_s3 f ++ 123 :: T ->
  ko (EName pr_Grammar) 0.
Proof.
  intros Hf HT Ebuf. pose proof Hf as (_ & _ & _ & _ & _ & _ & _ & _ & _ & _ & _ & _ & Hs3 & _).
  apply (after_type f (kw_Peg ++ f_s3 f ++ 123 :: T) Hf); [exact (pstart_stop 80 _ eq_refl)|exact Ebuf|].
  intros q A3. atn A3 as A4. atn A4 as A5.
  eapply kos_tail_C; [apply C_seq; exact (kw_ok kw_Peg q _ (0%nat, 0%nat) A3)|].
  eapply kos_tail_C; [exact (spacing_ok buf penv (f_s3 f) _ _ (0%nat, 0%nat) Hs3 (pstart_stop 123 T eq_refl) A4)|].
  apply kos_head. exact (action_unclosed_ko _ T A5 HT).
Qed.

(** Text without a package clause is refused: whatever comments and blank lines come first, if what follows them
    does not start with the word "package" the rule Grammar fails (this includes the empty text and a text of
    comments only). *)
Theorem grammar_rejects_no_package hdr tl : header_ok hdr tl -> stop tl -> (forall r, tl <> kw_package ++ r) ->
  buf = flat_map hshow hdr ++ tl -> ko (EName pr_Grammar) 0.
Proof.
  intros Hh Hst N Ebuf.
  assert (Hat : At 0 (flat_map hshow hdr ++ tl)) by (rewrite <- Ebuf; apply At_start).
  destruct (header_star buf penv hdr _ 0%nat (0%nat, 0%nat) Hh Hst Hat) as [t0 Hhdr].
  assert (Hhd : C (EName pr_Header) 0 (0 + length (flat_map hshow hdr))%nat (map hcall hdr) (0%nat, 0%nat) t0) by (into_rule; exact Hhdr).
  atn Hat as A0.
  pose proof (kw_ko kw_package _ _ A0 N) as K.
  ko_into_rule. apply ko_seq. eapply kos_tail_C; [exact Hhd|]. apply kos_head. apply ko_seq. exact K.
Qed.

End Reject.
