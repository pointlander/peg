(** [file_okb f = true] implies [file_ok f]. *)
From PegV Require Import Base.Tac Base.ListX Spec.Syntax Model.Calls Reader.Base Reader.Lex Reader.Chars Reader.Lits Reader.Expr Reader.Decide Reader.File.
Local Open Scope Z_scope.

Lemma nolbb_sound body : nolbb body = true -> nolb body.
Proof.
  unfold nolbb, nolb. intros H. apply Forall_forall. intros c Hc. pose proof (proj1 (forallb_forall _ _) H c Hc) as E.
  apply negb_true_iff in E. lia.
Qed.
Lemma eol_kind_sound e : eol_kind e <> 0%nat -> is_eol e /\ (e = [13] <-> eol_kind e = 2%nat).
Proof.
  unfold eol_kind, is_eol. destruct e as [|c [|d [|? ?]]]; try congruence.
  - destruct (Z.eqb_spec c 10) as [->|?]; [intros _; split; [auto|split; [discriminate|discriminate]]|].
    destruct (Z.eqb_spec c 13) as [->|?]; [intros _; split; [auto|split; reflexivity]|congruence].
  - destruct (Z.eqb_spec c 13) as [->|?]; [destruct (Z.eqb_spec d 10) as [->|?]|]; cbn [andb]; try congruence.
    intros _. split; [auto|split; discriminate].
Qed.
Lemma header_okb_sound l tl : header_okb l tl = true -> header_ok l tl.
Proof.
  induction l as [|h l IH]; cbn [header_okb header_ok]; [auto|]. intros H. apply andb_true_iff in H. destruct H as [Hh Hl].
  split; [|apply IH; exact Hl]. destruct h as [sl body e|run]; cbn [hitem_okb hitem_ok] in *.
  - apply andb_true_iff in Hh. destruct Hh as [Hh H3]. apply andb_true_iff in Hh. destruct Hh as [H1 H2].
    apply negb_true_iff in H2. apply Nat.eqb_neq in H2. destruct (eol_kind_sound e H2) as [He Hk].
    split; [apply nolbb_sound; exact H1|]. split; [exact He|]. intros E. apply Hk in E. rewrite E in H3. cbn in H3.
    apply head_is_ne. apply negb_true_iff. exact H3.
  - apply andb_true_iff in Hh. destruct Hh as [Hh H3]. apply andb_true_iff in Hh. destruct Hh as [H1 H2].
    split; [destruct run; [discriminate|discriminate]|]. split; [exact H2|]. intros c r E. rewrite E in H3. apply negb_true_iff in H3. exact H3.
Qed.

Lemma iname_okb_sound n : iname_okb n = true -> iname_ok n.
Proof.
  unfold iname_okb, iname_ok. intros H. apply andb_true_iff in H. destruct H as [H H3]. apply andb_true_iff in H. destruct H as [H1 H2].
  split; [destruct (in_path n); [discriminate|discriminate]|]. split; [exact H2|].
  destruct (in_alias n) as [[id s]|]; [|exact I]. apply andb_true_iff in H3. destruct H3. auto with wfb.
Qed.
Lemma nonempty_ne {A} (l : list A) : nonempty l = true -> l <> [].
Proof. destruct l; [discriminate|discriminate]. Qed.
#[local] Hint Resolve iname_okb_sound wfb_wf nonempty_ne : wfb.

Lemma imp_okb_sound i : imp_okb i = true -> imp_ok i.
Proof.
  destruct i as [s1 n s2|s1 s2 items s3]; cbn [imp_okb imp_ok]; intros H; repeat (apply andb_true_iff in H; destruct H as [H ?]).
  - auto 6 with wfb.
  - split; [|split; [|split]]; auto with wfb.
    apply Forall_forall. intros ns Hin.
    match goal with F : forallb _ items = true |- _ => pose proof (proj1 (forallb_forall _ _) F ns Hin) as Hf end.
    apply andb_true_iff in Hf. destruct Hf. auto with wfb.
Qed.
Lemma defs_okb_sound l : defs_okb l = true -> defs_ok l.
Proof.
  induction l as [|d l IH]; cbn [defs_okb defs_ok]; [auto|]. intros H. apply andb_true_iff in H. destruct H as [H H3]. apply andb_true_iff in H. destruct H as [H1 H2].
  split; [|split; [|apply IH; exact H3]].
  - unfold def_okb in H1. repeat (apply andb_true_iff in H1; destruct H1 as [H1 ?]). unfold def_ok. auto 6 with wfb.
  - intros Hne. destruct l; [congruence|]. apply negb_true_iff in H2. exact H2.
Qed.
Theorem file_okb_sound f : file_okb f = true -> file_ok f.
Proof.
  unfold file_okb, file_ok. intros H. repeat (apply andb_true_iff in H; destruct H as [H ?]).
  repeat split; auto with wfb.
  - apply header_okb_sound; exact H.
  - apply Forall_forall. intros i Hi. apply imp_okb_sound. match goal with F : forallb imp_okb _ = true |- _ => exact (proj1 (forallb_forall _ _) F i Hi) end.
  - apply defs_okb_sound; assumption.
Qed.
