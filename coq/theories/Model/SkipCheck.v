(** When may the generated code drop a first-character test (-switch)?  A case body compiled with
    the skip flag set must begin - through first elements of sequences, captures and inlined rules -
    with a terminal whose own test is implied by every key of the case. *)
From Coq Require Import List ZArith Bool Arith.
From PegV Require Import Spec.Syntax Spec.Peg Model.Machine.
Import ListNotations.

Section Skip.
Variable g : grammar.
Variable inl : nat -> bool.           (* rule inlined at its call site *)

(** the chain from an expression compiled with ParentDetect = true down to the terminal that skips
    its test; [mk] = ParentMultipleKey; [c] = the character the case guard has established *)
Inductive chain : expr -> bool -> rune -> Prop :=
| ch_char_mk k c : chain (EChar k) true c                       (* several keys: the test is kept *)
| ch_char k : chain (EChar k) false k                           (* single key = the literal itself *)
| ch_range lo hi mk c : in_range lo hi c = true -> chain (ERange lo hi) mk c
| ch_seq e1 es mk c : chain e1 mk c -> chain (ESeq (e1 :: es)) mk c
| ch_seq_nil mk c : chain (ESeq []) mk c
| ch_push e1 mk c : chain e1 mk c -> chain (EPush e1) mk c
| ch_inline r b mk c : inl r = true -> nth_error g r = Some (RBody b) -> chain b mk c -> chain (EName r) mk c
| ch_inline_other r mk c : inl r = true -> (forall b, nth_error g r <> Some (RBody b)) -> chain (EName r) mk c
| ch_call r mk c : inl r = false -> chain (EName r) mk c
| ch_pred k mk c : chain (EPred k) mk c
| ch_state k mk c : chain (EState k) mk c
| ch_act k mk c : chain (EAct k) mk c
| ch_nil mk c : chain ENil mk c
| ch_alt es mk c : chain (EAlt es) mk c                          (* flags are not handed down *)
| ch_and e1 mk c : chain (EAnd e1) mk c
| ch_not e1 mk c : chain (ENot e1) mk c
| ch_query e1 mk c : chain (EQuery e1) mk c
| ch_star e1 mk c : chain (EStar e1) mk c
| ch_plus e1 mk c : chain (EPlus e1) mk c
| ch_switch cs d mk c : chain (ESwitch cs d) mk c.

Fixpoint chain_b (n : nat) (e : expr) (mk : bool) (c : rune) {struct n} : bool :=
  match n with
  | O => false
  | S n =>
    match e with
    | EDot => false
    | EChar k => mk || Z.eqb k c
    | ERange lo hi => in_range lo hi c
    | ESeq (e1 :: _) => chain_b n e1 mk c
    | EPush e1 => chain_b n e1 mk c
    | EName r => if inl r then match nth_error g r with Some (RBody b) => chain_b n b mk c | _ => true end else true
    | _ => true
    end
  end.

Lemma chain_b_sound n : forall e mk c, chain_b n e mk c = true -> chain e mk c.
Proof.
  induction n as [|n IH]; intros e mk c H; [discriminate|].
  destruct e; cbn [chain_b] in H; try discriminate; try (constructor; fail).
  - apply orb_true_iff in H as [->|H]; [constructor|]. apply Z.eqb_eq in H. subst. destruct mk; constructor.
  - constructor. exact H.
  - destruct (inl r) eqn:Ei; [|apply ch_call; exact Ei].
    destruct (nth_error g r) as [[b|k|]|] eqn:Eg; [eapply ch_inline; eauto|..].
    all: apply ch_inline_other; auto; intros b Hb; congruence.
  - destruct es as [|e1 es]; [constructor|]. constructor. apply IH. exact H.
  - constructor. apply IH. exact H.
Qed.

Lemma chain_inv e mk c : chain e mk c ->
  match e with
  | EDot => False
  | EChar k => mk = true \/ c = k
  | ERange lo hi => in_range lo hi c = true
  | ESeq (e1 :: _) | EPush e1 => chain e1 mk c
  | EName r => inl r = true -> forall b, nth_error g r = Some (RBody b) -> chain b mk c
  | _ => True
  end.
Proof.
  destruct 1; auto.
  - intros _ b' Hb. replace b' with b by congruence. assumption.
  - intros _ b' Hb. destruct (H0 _ Hb).
  - congruence.
Qed.

(** every switch in the expression is well guarded *)
Fixpoint swok (e : expr) : Prop :=
  match e with
  | ESeq es | EAlt es => (fix all (l : list expr) : Prop := match l with [] => True | x :: l' => swok x /\ all l' end) es
  | EAnd e1 | ENot e1 | EQuery e1 | EStar e1 | EPlus e1 | EPush e1 => swok e1
  | ESwitch cs d =>
      swok d /\
      (fix allc (l : list (list rune * expr)) : Prop :=
         match l with
         | [] => True
         | (keys, b) :: l' => (swok b /\ forall c, In c keys -> chain b (Nat.ltb 1 (length keys)) c) /\ allc l'
         end) cs
  | _ => True
  end.

Lemma swok_list es :
  (fix all (l : list expr) : Prop := match l with [] => True | x :: l' => swok x /\ all l' end) es <-> Forall swok es.
Proof.
  induction es as [|x es IH]; [split; constructor|].
  rewrite Forall_cons_iff. split; intros [A B]; (split; [exact A|apply IH; exact B]).
Qed.

Lemma swok_seq es : swok (ESeq es) <-> Forall swok es.
Proof. exact (swok_list es). Qed.

Lemma swok_alt es : swok (EAlt es) <-> Forall swok es.
Proof. exact (swok_list es). Qed.

Lemma swok_switch_case cs d keys e1 c :
  swok (ESwitch cs d) -> In (keys, e1) cs -> In c keys -> swok e1 /\ chain e1 (Nat.ltb 1 (length keys)) c.
Proof.
  cbn [swok]. intros [_ H] Hin Hc. induction cs as [|[k x] cs IH]; [destruct Hin|].
  destruct H as [[H1 H2] H3]. destruct Hin as [E|Hin]; [injection E as -> ->|]; auto.
Qed.

Fixpoint swok_b (n : nat) (e : expr) : bool :=
  match e with
  | ESeq es | EAlt es => forallb (swok_b n) es
  | EAnd e1 | ENot e1 | EQuery e1 | EStar e1 | EPlus e1 | EPush e1 => swok_b n e1
  | ESwitch cs d =>
      swok_b n d &&
      forallb (fun kb => swok_b n (snd kb) && forallb (fun c => chain_b n (snd kb) (Nat.ltb 1 (length (fst kb))) c) (fst kb)) cs
  | _ => true
  end.

Lemma swok_b_sound n e : swok_b n e = true -> swok e.
Proof.
  assert (Hl : forall es, Forall (fun e => swok_b n e = true -> swok e) es -> forallb (swok_b n) es = true -> Forall swok es).
  { intros es H Hb. rewrite forallb_forall in Hb. rewrite Forall_forall in *. auto. }
  induction e using expr_ind2; cbn [swok_b swok]; intros Hb; auto.
  - apply swok_list, Hl; assumption.
  - apply swok_list, Hl; assumption.
  - apply andb_true_iff in Hb as [Hd Hc]. split; [auto|].
    induction H as [|[keys b] cs Hx Hcs IHcs]; cbn [forallb] in Hc; [exact I|].
    apply andb_true_iff in Hc as [H1 H2]. cbn [fst snd] in *. apply andb_true_iff in H1 as [Hb' Hk].
    split; [|apply IHcs; exact H2]. split; [apply Hx; exact Hb'|]. intros c Hin. rewrite forallb_forall in Hk. apply (chain_b_sound n). apply Hk. exact Hin.
Qed.

Definition grammar_swok : Prop := forall r b, nth_error g r = Some (RBody b) -> swok b.
Definition grammar_swok_b (n : nat) : bool :=
  forallb (fun rb => match rb with RBody b => swok_b n b | _ => true end) g.

Lemma grammar_swok_b_sound n : grammar_swok_b n = true -> grammar_swok.
Proof.
  intros H r b Hr. unfold grammar_swok_b in H. rewrite forallb_forall in H.
  specialize (H _ (nth_error_In _ _ Hr)). cbn in H. eapply swok_b_sound; eauto.
Qed.

End Skip.
