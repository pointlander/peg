(** The two syntactic premises of the code-level theorems (what peg's front end builds and what Compile's link pass
    leaves: every ordered choice has two alternatives or more, every reference stands for a rule or an action), as
    propositions and as executable checks.  Definitions only: the extracted driver evaluates the checks for every
    grammar of the correspondence run (Extract.v), the proofs about them are in Proofs/EmitUse.v, CountInline.v. *)
From PegV Require Import Spec.Syntax Model.Analyses.
From Coq Require Import List Arith Bool.
Import ListNotations.

(** every ordered choice has at least two alternatives *)
Fixpoint alt2 (e : expr) : bool :=
  match e with
  | ESeq es => forallb alt2 es
  | EAlt es => Nat.leb 2 (length es) && forallb alt2 es
  | EAnd e1 | ENot e1 | EQuery e1 | EStar e1 | EPlus e1 | EPush e1 => alt2 e1
  | ESwitch cs d => forallb (fun c => alt2 (snd c)) cs && alt2 d
  | _ => true
  end.
Definition grammar_alt2 (g : grammar) : Prop := forall r b, nth_error g r = Some (RBody b) -> alt2 b = true.
Definition grammar_alt2_b (g : grammar) : bool := forallb (fun rb => match rb with RBody b => alt2 b | _ => true end) g.

(** every name in a rule body stands for a rule or an action *)
Definition closed_names (g : grammar) : Prop :=
  forall r b, nth_error g r = Some (RBody b) -> forall r', In r' (names_of b) -> exists rb, nth_error g r' = Some rb /\ rb <> RNil.

Definition closed_names_b (g : grammar) : bool :=
  forallb (fun rb => match rb with
                     | RBody b => forallb (fun r' => match nth_error g r' with Some RNil | None => false | _ => true end) (names_of b)
                     | _ => true end) g.
